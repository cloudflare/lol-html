(* C15 (no stack exhaustion from the tokenizer): a transition written `--> #[inline] state` is a direct call of the state
   function (src/parser/state_machine/syntax_dsl/action.rs: "the calls using #[inline] must never create a loop"); every
   other transition returns to the parsing loop first.  On the regenerated table the inline edges form no cycle, so the
   depth of nested state-function calls is bounded by the number of states, whatever the input. *)
From LolGen Require Import StateTable.
From Coq Require Import List.
Import ListNotations.

Fixpoint al_inline (al : alist) : list state :=
  match al with
  | AL _ (T_goto s true) => [s]
  | AL _ _ => []
  | AL_if _ t e => al_inline t ++ al_inline e
  end.
Definition inline_succ (st : state) : list state := flat_map (fun pa => al_inline (snd pa)) (sd_arms (table st)).
Definition mem (s : state) (l : list state) : bool := existsb (state_eqb s) l.
Fixpoint dedup (l acc : list state) : list state :=
  match l with [] => acc | x :: r => if mem x acc then dedup r acc else dedup r (acc ++ [x]) end.
(* the states reachable in exactly n inline steps *)
Fixpoint frontier (n : nat) (l : list state) : list state :=
  match n with O => l | S k => frontier k (dedup (flat_map inline_succ l) []) end.
Definition on_inline_cycle (st : state) : bool :=
  existsb (fun k => mem st (frontier (S k) [st])) (seq 0 (length all_states)).
Definition inline_edges : nat := length (flat_map inline_succ all_states).

(* on_inline_cycle builds every frontier from [st] again; `returns` asks the same of each frontier while walking them once *)
Fixpoint returns (n : nat) (l : list state) (st : state) : bool :=
  match n with O => false | S k => let l' := dedup (flat_map inline_succ l) [] in mem st l' || returns k l' st end.
Lemma frontier_S n : forall l, frontier (S n) l = dedup (flat_map inline_succ (frontier n l)) [].
Proof. induction n as [|n IH]; intros l; [reflexivity | exact (IH _)]. Qed.
Lemma returns_spec st l : forall n s, existsb (fun k => mem st (frontier (S k) l)) (seq s n) = returns n (frontier s l) st.
Proof. induction n as [|n IH]; intros s; [reflexivity|]. cbn [seq existsb returns]. rewrite IH, <- frontier_S. reflexivity. Qed.

Theorem inline_transitions_form_no_cycle : forallb (fun st => negb (on_inline_cycle st)) all_states = true.
Proof.
  assert (H : forallb (fun st => negb (returns (length all_states) [st] st)) all_states = true) by (vm_compute; reflexivity).
  rewrite forallb_forall in *. intros st Hst. unfold on_inline_cycle. rewrite (returns_spec st [st] _ 0). exact (H st Hst).
Qed.
(* the check is not vacuous: there are inline transitions, some of them chained *)
Example inline_transitions_exist : 0 < inline_edges /\ existsb (fun st => negb (match frontier 2 [st] with [] => true | _ => false end)) all_states = true.
Proof. vm_compute. split; [repeat constructor | reflexivity]. Qed.
