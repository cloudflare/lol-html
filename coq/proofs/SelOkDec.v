(* C04: the side conditions of the end-to-end theorem are syntactic and decidable: a boolean check on the selector list
   (class names non-empty; :not() arguments that flatten exactly) implies sel_ok on every chain of elements. *)
From LolModel Require Import Rewriter.
From LolSpec Require Import CssSem.
From LolProofs Require Import CssPred StackTree AstSem VmRun.
Import ListNotations.
Open Scope nat_scope.

Lemma forallb_Forall {A} (f : A -> bool) (P : A -> Prop) l : (forall x, f x = true -> P x) -> forallb f l = true -> Forall P l.
Proof. intros H E. apply Forall_forall. intros x Hx. apply H. exact (proj1 (forallb_forall f l) E x Hx). Qed.

Fixpoint simple_wfb (fuel : nat) (s : simple) : bool :=
  match s with
  | SClass v => match v with [] => false | _ => true end
  | SNot args => match fuel with O => true | S f => forallb (forallb (simple_wfb f)) args end
  | _ => true
  end.
Lemma simple_wfb_ok : forall fuel s e, simple_wfb fuel s = true -> simple_wf fuel e s.
Proof.
  induction fuel as [|f IH]; intros s e; destruct s; cbn [simple_wfb simple_wf]; try (intros _; exact I).
  1,2: destruct v; discriminate.
  apply forallb_Forall. intros cmp. apply forallb_Forall. intros s. apply IH.
Qed.
Definition compound_okb (c : compound) : bool :=
  forallb (fun s => simple_wfb (S (simple_depth s)) s && exact_simple (S (simple_depth s)) s false) c.
Lemma compound_okb_ok c e : compound_okb c = true -> compound_ok e c.
Proof.
  apply forallb_Forall. intros s H. apply andb_true_iff in H. destruct H as [H1 H2]. split; [apply simple_wfb_ok; exact H1 | exact H2].
Qed.
Definition sel_okb (sel : selector) : bool :=
  forallb (fun cx => compound_okb (cx_first cx) && forallb (fun kc => compound_okb (snd kc)) (cx_rest cx)) sel.
Lemma sel_okb_ok sel : sel_okb sel = true -> forall chain, sel_ok sel chain.
Proof.
  intros H chain. revert H. apply forallb_Forall. intros cx H. apply andb_true_iff in H. destruct H as [H1 H2].
  apply Forall_forall. intros e _. split; [apply compound_okb_ok; exact H1|].
  revert H2. apply forallb_Forall. intros kc. apply compound_okb_ok.
Qed.
Lemma sels_okb_ok sels chain :
  forallb (fun sh => sel_okb (sh_selector sh)) sels = true -> Forall (fun sel => sel_ok sel chain) (map sh_selector sels).
Proof. intros Hb. apply Forall_map. revert Hb. apply forallb_Forall. intros sh H. apply sel_okb_ok. exact H. Qed.
