(* C01 / C11 / C12(prefix) / C15(no slice panic), and through Corollaries.v C02 / C06 / C09: the bytes given to the sink during one Parser::parse
   call are exactly chunk[0 .. remaining_content_start), for EVERY observer controller (any capture-flag
   policy, any handler that does not mutate), every chunk, every interleaving of lexer and tag scanner.
   Generic in the transition table; the table-dependent side conditions are decided by vm_compute on the
   regenerated gen/StateTable.v (TableFacts.v). *)
From LolModel Require Import Machine.
From LolProofs Require Import MachineFacts.
From Coq Require Import Lia.
Open Scope nat_scope.

Definition token_bytes (t : token) : bytes :=
  match t with
  | TStart _ _ _ _ _ raw _ | TEnd _ _ raw _ | TComment _ raw _ | TDoctype _ _ _ _ raw _ => raw
  | TText _ text _ _ => text
  end.

Section Tiling.
Context {C : Type} (ctl : controller C).
Notation disp := (@disp C).
Notation ctx := (@ctx C).
Notation stream := (@stream C).
Notation rewriter := (@rewriter C).
(* observers: a handled token is re-emitted as its own bytes; content is never removed *)
Hypothesis obs_token : forall c t c' ps, c_token ctl c t = (c', OOk ps) -> List.concat ps = token_bytes t.
Hypothesis obs_emit : forall c, c_should_emit ctl c = true.

Definition sb (d : disp) : bytes := sink_bytes (rev (d_sink d)).
Lemma sb_push d b : sb (sink_push d b) = sb d ++ b.
Proof. unfold sb, sink_push, sink_bytes. cbn. rewrite flat_map_app. cbn. rewrite app_nil_r. reflexivity. Qed.
Lemma sb_push_nonempty d b : sb (sink_push_nonempty d b) = sb d ++ b.
Proof. destruct b; [cbn; rewrite app_nil_r; reflexivity | apply sb_push]. Qed.
Lemma sb_pieces ps : forall d, sb (sink_pieces d ps) = sb d ++ List.concat ps.
Proof.
  unfold sink_pieces. induction ps as [|p ps IH]; intro d; cbn; [rewrite app_nil_r; reflexivity|].
  rewrite IH, sb_push_nonempty, app_assoc. reflexivity.
Qed.

Lemma pn_emission (d : disp) b : d_emission (sink_push_nonempty d b) = d_emission d.
Proof. exact (push_nonempty_frame d_emission (fun _ _ => eq_refl) d b). Qed.
Lemma pieces_emission ps (d : disp) : d_emission (sink_pieces d ps) = d_emission d.
Proof. exact (pieces_frame d_emission (fun _ _ => eq_refl) ps d). Qed.
Lemma pieces_rcs ps (d : disp) : d_rcs (sink_pieces d ps) = d_rcs d.
Proof. exact (pieces_frame d_rcs (fun _ _ => eq_refl) ps d). Qed.

Section Chunk.
Variable chunk : bytes.
Variable base : nat.
Variable S0 : bytes.     (* bytes in the sink when this parse call started *)

Definition T (d : disp) : Prop :=
  sb d = S0 ++ firstn (d_rcs d) chunk /\ d_rcs d <= length chunk /\ d_emission d = true.

Lemma firstn_split {A} (l : list A) : forall a b, a <= b -> firstn a l ++ firstn (b - a) (skipn a l) = firstn b l.
Proof.
  induction l as [|x l IH]; intros a b H.
  - rewrite !firstn_nil, skipn_nil, firstn_nil. reflexivity.
  - destruct a as [|a]; [cbn; rewrite Nat.sub_0_r; reflexivity|].
    destruct b as [|b]; [lia|]. cbn. rewrite IH by lia. reflexivity.
Qed.
Lemma firstn_sub a b : a <= b -> firstn a chunk ++ sub chunk a b = firstn b chunk.
Proof. exact (firstn_split chunk a b). Qed.

Lemma leb_between {a b c} : a <= b -> b <= c -> (a <=? b) && (b <=? c) = true.
Proof. intros H1 H2. apply andb_true_intro; split; apply Nat.leb_le; assumption. Qed.
Lemma getb_lt i ch : getb chunk i = Some ch -> i < length chunk.
Proof. intro E. apply nth_error_Some. unfold getb in E. congruence. Qed.

Lemma T_advance d d' e :
  T d -> d_rcs d <= e -> e <= length chunk -> sb d' = sb d ++ sub chunk (d_rcs d) e -> d_emission d' = true ->
  T (d_with_rcs d' e).
Proof.
  intros (Hs & Hr & He) H1 H2 Hsb Hem. split; [|split; [exact H2 | exact Hem]].
  change (sb d' = S0 ++ firstn e chunk). rewrite Hsb, Hs, <- app_assoc, (firstn_sub _ _ H1). reflexivity.
Qed.
Lemma T_push d e :
  T d -> d_rcs d <= e -> e <= length chunk -> T (d_with_rcs (sink_push_nonempty d (sub chunk (d_rcs d) e)) e).
Proof. intros HT H1 H2. apply (T_advance d); auto; [apply sb_push_nonempty | rewrite pn_emission; apply HT]. Qed.
Lemma T_ctl d c : T d -> T (d_with_ctl d c). Proof. exact (fun H => H). Qed.
Lemma T_rest d : T d -> sb d ++ skipn (d_rcs d) chunk = S0 ++ chunk.
Proof. intros (Hs & _). rewrite Hs, <- app_assoc, firstn_skipn. reflexivity. Qed.
Lemma T_rcs_same (x : disp) r : d_rcs x = r -> T (d_with_rcs x r) -> T x.
Proof. intros <- H. exact H. Qed.

Definition dT {A} (post : A -> Prop) (r : @dres C A) : Prop :=
  match r with DOk a => post a | DErr _ d' => T d' | DPanic k _ => k = 11 end.
Lemma dT_bind {A B} (posta : A -> Prop) (postb : B -> Prop) r (k : A -> @dres C B) :
  dT posta r -> (forall a, posta a -> dT postb (k a)) ->
  dT postb (match r with DOk a => k a | DErr e x => DErr e x | DPanic c x => DPanic c x end).
Proof. intros H Hk. destruct r; cbn in *; auto. Qed.
Lemma dT_weaken {A} (p q : A -> Prop) r : dT p r -> (forall a, p a -> q a) -> dT q r.
Proof. destruct r; cbn; auto. Qed.

Lemma emit_chunk_before_T d raw :
  T d -> d_rcs d <= rs raw -> rs raw <= length chunk ->
  dT (fun d' => T d' /\ d_rcs d' = rs raw) (emit_chunk_before_lexeme chunk d raw).
Proof.
  intros HT H1 H2. unfold emit_chunk_before_lexeme.
  rewrite (leb_between H1 H2), (proj2 (proj2 HT)). exact (conj (T_push d _ HT H1 H2) eq_refl).
Qed.

Lemma token_produced_T d t e :
  T d -> d_rcs d <= e -> e <= length chunk -> token_bytes t = sub chunk (d_rcs d) e ->
  dT (fun d' => T (d_with_rcs d' e) /\ d_rcs d' = d_rcs d) (token_produced ctl d t).
Proof.
  intros HT H1 H2 Hb. unfold token_produced.
  destruct (c_token ctl (d_ctl d) t) as [c' [ps|err]] eqn:E; cbn; [|exact HT].
  change (d_emission (d_with_ctl d c')) with (d_emission d). rewrite (proj2 (proj2 HT)).
  split; [|exact (pieces_rcs ps (d_with_ctl d c'))].
  apply (T_advance d); auto; [|rewrite pieces_emission; apply HT].
  rewrite sb_pieces, (obs_token _ _ _ _ E), Hb. reflexivity.
Qed.

Lemma flush_pending_text_T d :
  T d -> dT (fun d' => T d' /\ d_rcs d' = d_rcs d) (flush_pending_text ctl d).
Proof.
  intro HT. unfold flush_pending_text. destruct (d_td_pending d); [|split; [exact HT | reflexivity]].
  (* the empty last text chunk is a token whose bytes are chunk[rcs .. rcs) *)
  eapply dT_bind.
  - apply (token_produced_T d _ (d_rcs d)); [exact HT | apply le_n | apply HT|]. unfold sub. rewrite Nat.sub_diag. reflexivity.
  - intros d1 [H1 E1]. split; [exact (T_rcs_same d1 _ E1 H1) | exact E1].
Qed.

Lemma part_is_sub (r : range) : slice chunk r = sub chunk (rs r) (re r). Proof. reflexivity. Qed.

Lemma produce_token_T d raw t :
  T d -> d_rcs d <= rs raw -> rs raw <= re raw -> re raw <= length chunk -> token_bytes t = slice chunk raw ->
  dT (fun d' => T d' /\ d_rcs d' = re raw) (produce_token ctl chunk d raw t).
Proof.
  intros HT H1 H2 H3 Hb.
  eapply dT_bind; [apply emit_chunk_before_T; auto; lia | intros d1 [HT1 Hr1]].
  eapply dT_bind.
  - apply (token_produced_T d1 t (re raw)); [exact HT1 | lia | exact H3 | rewrite Hr1; exact Hb].
  - intros d2 [HT2 _]. split; [exact HT2 | reflexivity].
Qed.

Lemma feed_text_T d ty raw :
  T d -> d_rcs d = rs raw -> rs raw <= re raw -> re raw <= length chunk ->
  dT (fun d' => T (d_with_rcs d' (re raw))) (feed_text ctl chunk base d ty raw).
Proof.
  intros HT H1 H2 H3.
  eapply dT_bind.
  - apply (token_produced_T d _ (re raw)); [exact HT | lia | exact H3 | rewrite H1; reflexivity].
  - intros d1 [HT1 _]. exact HT1.
Qed.

Lemma hint_start_T d name h n :
  T d -> dT (fun x => T (fst x) /\ d_rcs (fst x) = d_rcs d) (hint_start ctl d name h n).
Proof.
  intro HT. unfold hint_start. destruct (c_start_tag _ _ _ _ _ _) as [c' r]. destruct r; cbn; auto.
Qed.
Lemma hint_end_T d name h :
  T d -> dT (fun x => T (fst x) /\ d_rcs (fst x) = d_rcs d) (hint_end ctl d name h).
Proof.
  intro HT. eapply dT_bind; [apply flush_pending_text_T; exact HT | intros d0 H0].
  destruct (c_end_tag _ _ _ _) as [c' f]. exact H0.
Qed.
Lemma adjust_capture_flags_T d t :
  T d -> dT (fun d' => T d' /\ d_rcs d' = d_rcs d) (adjust_capture_flags ctl chunk base d t).
Proof.
  intro HT. unfold adjust_capture_flags. destruct (d_pending_req d).
  - destruct t; cbn.
    + destruct (c_aux_info _ _ _ _ _) as [c' r]; destruct r; cbn; auto.
    + (* an end tag while an info request is pending: ActionError::internal (code 11), not a slice panic *)
      reflexivity.
  - destruct t.
    + destruct (c_start_tag _ _ _ _ _ _) as [c' r]; destruct r; cbn; auto.
      destruct (c_aux_info _ _ _ _ _) as [c'' r2]; destruct r2; cbn; auto.
    + destruct (c_end_tag _ _ _ _) as [c' f]; cbn; auto.
Qed.

Lemma tag_to_token_T d raw t :
  T d -> T (fst (tag_to_token chunk base d raw t)) /\ d_rcs (fst (tag_to_token chunk base d raw t)) = d_rcs d
         /\ match snd (tag_to_token chunk base d raw t) with Some tk => token_bytes tk = slice chunk raw | None => True end.
Proof. intro HT. unfold tag_to_token. destruct t; destruct (has_flag _ _); cbn; auto. Qed.

Lemma handle_tag_T d raw t :
  T d -> d_rcs d <= rs raw -> rs raw <= re raw -> re raw <= length chunk ->
  dT (fun x => T (fst x) /\ d_rcs (fst x) <= re raw) (handle_tag ctl chunk base d raw t).
Proof.
  intros HT H1 H2 H3.
  eapply dT_bind; [apply flush_pending_text_T; exact HT | intros d0 [HT0 Hr0]].
  apply (dT_bind (fun d' => T d' /\ d_rcs d' = d_rcs d0));
    [destruct (d_hint d0); [cbn; auto | apply adjust_capture_flags_T; exact HT0] | intros d1 [HT1 Hr1]].
  (* emission is on, so nothing is being removed and an end tag has nothing to stop *)
  assert (Hstop : should_stop_removing ctl d1 = false) by (unfold should_stop_removing; rewrite (proj2 (proj2 HT1)); reflexivity).
  replace (match t with EndTagO _ _ => _ | _ => d1 end) with d1 by (destruct t; [reflexivity | rewrite Hstop; reflexivity]).
  destruct (tag_to_token_T d1 raw t HT1) as (HT3 & Hr3 & Hb).
  destruct (tag_to_token chunk base d1 raw t) as [d3 tok]. cbn in HT3, Hr3, Hb.
  apply (dT_bind (fun d' => T d' /\ d_rcs d' <= re raw)).
  - destruct tok as [tk|]; [|split; [exact HT3 | lia]].
    eapply dT_weaken; [apply produce_token_T; auto; lia | intros d4 [? ->]; auto].
  - intros d4 [(Hs & Hr & He) Hr4]. split; [|exact Hr4]. split; [exact Hs | split; [exact Hr | apply obs_emit]].
Qed.

Lemma handle_non_tag_T d raw t :
  T d -> d_rcs d <= rs raw -> rs raw <= re raw -> re raw <= length chunk ->
  dT (fun d' => T d' /\ d_rcs d' <= re raw) (handle_non_tag ctl chunk base d raw t).
Proof.
  intros HT H1 H2 H3. unfold handle_non_tag.
  assert (H0 : dT (fun d' => T d' /\ d_rcs d' = d_rcs d) (match t with Some (TextO _) => DOk d | _ => flush_pending_text ctl d end)).
  { destruct t as [[| | |]|]; try (apply flush_pending_text_T; exact HT). split; [exact HT | reflexivity]. }
  destruct (match t with Some (TextO _) => DOk d | _ => flush_pending_text ctl d end) as [d0| |]; [|exact H0 | exact H0].
  destruct H0 as [HT0 Hr0].
  assert (Hskip : T d0 /\ d_rcs d0 <= re raw) by (split; [exact HT0 | lia]).
  destruct t as [[ty|c|n p s f|]|]; try exact Hskip; (destruct (has_flag _ _); [|exact Hskip]).
  1: { eapply dT_bind; [apply emit_chunk_before_T; [exact HT0 | lia | lia] | intros d1 [HT1 Hr1]].
    eapply dT_bind; [apply feed_text_T; assumption | intros d2 HT2].
    split; [exact HT2 | apply le_n]. }
  all: eapply dT_weaken; [apply produce_token_T; auto; lia | intros d4 [? ->]; auto].
Qed.

Notation len := (length chunk).
Definition rcs_of (c : ctx) : nat := d_rcs (c_disp c).
Definition Tc (c : ctx) : Prop := T (c_disp c).

Definition marks_ok (s : scanner) (r : nat) : Prop :=
  forall a, tag_start (s_tag s) = Some a -> r <= a /\ a <= len.
Definition seq_none (m : mach) : Prop := match m with MS s => ch_seq_start (s_tag s) = None | ML _ => True end.

(* after the byte (valid) or the end marker of this iteration has been consumed; strict: the lexer has not emitted
   that byte, its lexeme starts before the cursor *)
Definition Mid (valid strict : bool) (m : mach) (c : ctx) : Prop :=
  Tc c /\ 1 <= next_pos m /\ next_pos m <= len + 1 /\ (valid = true -> next_pos m <= len) /\ seq_none m /\
  match m with
  | ML l => rcs_of c <= lc_lexeme_start (l_cur l) /\
            (if strict then lc_lexeme_start (l_cur l) < lc_next (l_cur l) else lc_lexeme_start (l_cur l) <= lc_next (l_cur l))
  | MS s => rcs_of c < s_next s /\ marks_ok s (rcs_of c)
  end.
Definition has_seq_l (arms : list (pat * alist)) : bool := existsb (fun pa => match fst pa with P_seq _ _ => true | _ => false end) arms.
Definition seqst (m : mach) : Prop := m_entered (mode_of m) = true /\ has_seq_l (sd_arms (table (m_st (mode_of m)))) = true.
(* between iterations *)
Definition Bnd (m : mach) (c : ctx) : Prop :=
  Tc c /\ next_pos m <= len /\
  match m with
  | ML l => rcs_of c <= lc_lexeme_start (l_cur l) /\ lc_lexeme_start (l_cur l) <= lc_next (l_cur l)
  | MS s => rcs_of c <= s_next s /\ marks_ok s (rcs_of c) /\
            (ch_seq_start (s_tag s) = None \/ seqst (MS s))
  end.
Lemma Bnd_seq m c : Bnd m c -> seq_none m \/ seqst m.
Proof. intros (_ & _ & H). destruct m; [left; exact I | apply H]. Qed.
Definition Bm_ok (b : bookmark) (c : ctx) : Prop := Tc c /\ rcs_of c <= bm_pos b /\ bm_pos b <= len.
(* a scanner that hands over to the lexer has no tag start and no sequence start recorded *)
Definition tags_none (s : scanner) : Prop := tag_start (s_tag s) = None /\ ch_seq_start (s_tag s) = None.
Definition sw_tags (m : mach) : Prop :=
  match m with MS s => tags_none s | ML _ => True end.

Definition aT (valid strict' : bool) (r : act_res) : Prop :=
  match r with
  | AOk m' c' => Mid valid strict' m' c'
  | ASwitch d b m' c' => Bm_ok b c' /\ sw_tags m'
  | AErr _ c' => Tc c'
  | APanic k _ => k <> 10 /\ k <> 5
  end.

Lemma aT_of_dres {A} valid strict s (post : A -> Prop) (r : @dres C A) (k : A -> act_res) :
  dT post r -> (forall a, post a -> aT valid strict (k a)) ->
  aT valid strict (match r with DOk a => k a | DErr e d => AErr e (mkCtx s d) | DPanic n d => APanic n (mkCtx s d) end).
Proof. intros H Hk. destruct r; [apply Hk, H | exact H | cbn in H; subst; split; discriminate]. Qed.

Ltac split_mid := split; [|split; [|split; [|split; [|split]]]].
Lemma Mid_weaken valid m c : Mid valid true m c -> Mid valid false m c.
Proof.
  intros (H1 & H2 & H3 & H4 & H5 & H6). split_mid; auto. destruct m; auto. destruct H6; split; auto. lia.
Qed.

(* the lexer stays a lexer, the scanner a scanner, and is_last_input never changes inside a parse call *)
Definition isL (m : mach) : bool * bool := (match m with ML _ => true | MS _ => false end, is_last m).
Definition mst (m : mach) : state * bool := (m_st (mode_of m), m_entered (mode_of m)).
(* an action that hands over to the other machine still returns the machine it was given *)
Definition keeps (m : mach) (r : @act_res C) : Prop :=
  match r with
  | AOk m' _ => isL m' = isL m /\ mst m' = mst m /\ next_pos m' = next_pos m
  | ASwitch _ _ m' _ => isL m' = isL m
  | _ => True
  end.
Lemma keeps_weaken m0 m r : isL m = isL m0 /\ mst m = mst m0 /\ next_pos m = next_pos m0 -> keeps m r -> keeps m0 r.
Proof. intros (E1 & E2 & E3). destruct r; cbn; rewrite ?E1, ?E2, ?E3; auto. Qed.
Lemma keeps_then_lexer m r k : keeps m r -> (forall l c, keeps (ML l) (k l c)) -> keeps m (then_lexer r k).
Proof. intros H Hk. destruct r as [[l1|s1] c1| | |]; try exact H. eapply keeps_weaken; [exact H | apply Hk]. Qed.

Lemma keeps_of_dres {A} m s (r : @dres C A) (k : A -> act_res) :
  (forall a, keeps m (k a)) ->
  keeps m (match r with DOk a => k a | DErr e d => AErr e (mkCtx s d) | DPanic n d => APanic n (mkCtx s d) end).
Proof. intro Hk. destruct r; [apply Hk | exact I | exact I]. Qed.
Lemma of_dres_ctx_keeps s m (r : @dres C disp) : keeps m (of_dres_ctx s m r).
Proof. destruct r; cbn; auto. Qed.
Lemma l_emit_nontag_keeps l c e t : keeps (ML l) (l_emit_nontag ctl chunk base l c e t).
Proof. exact (of_dres_ctx_keeps _ (ML (l_with_ls l e)) _). Qed.
Lemma l_emit_text_keeps l c : keeps (ML l) (l_emit_text ctl chunk base l c).
Proof. unfold l_emit_text. destruct (_ <? _); [apply l_emit_nontag_keeps | cbn; auto]. Qed.
Lemma then_eof_keeps m r : keeps m r -> keeps m (then_lexer r (l_emit_eof ctl chunk base)).
Proof. intro H. apply keeps_then_lexer; [exact H | intros; apply l_emit_nontag_keeps]. Qed.
Lemma l_emit_tag_keeps l c : keeps (ML l) (l_emit_tag ctl chunk base l c).
Proof.
  unfold l_emit_tag. destruct (b_tag (l_build l)) as [t|]; [|exact I].
  destruct (match b_fd (l_build l) with FdNone => _ | _ => _ end) as [[s1 fbo]|]; [|exact I].
  destruct (match fbo with Some f => _ | None => _ end) as [[s2 ltt] cd].
  destruct (match t with StartTagO _ _ _ _ _ => _ | EndTagO _ _ => _ end) as [t' lh].
  apply keeps_of_dres. intros [d' []]; cbn; auto.
Qed.
Lemma lexer_action_keeps a l c : keeps (ML l) (lexer_action ctl chunk base a l c).
Proof.
  destruct a; try exact (conj eq_refl (conj eq_refl eq_refl)); cbn [lexer_action]; try apply then_eof_keeps;
    first [apply l_emit_text_keeps | apply (l_emit_nontag_keeps (l_with_build l _)) | apply l_emit_nontag_keeps | apply l_emit_tag_keeps | idtac].
  destruct (b_tag (l_build l)) as [[|]|]; [| |exact I]; exact (conj eq_refl (conj eq_refl eq_refl)).
Qed.
Lemma s_finish_tag_name_keeps s c : keeps (MS s) (s_finish_tag_name ctl chunk s c).
Proof.
  unfold s_finish_tag_name. destruct (tag_start (s_tag s)); [|exact I].
  destruct (if is_in_end_tag (s_tag s) then _ else _) as [[sim' fb]|]; [|exact I].
  destruct (match fb with FbSwitch _ => _ | _ => _ end) as [[t1 md1] unhandled] eqn:Eu.
  (* the mode changes in m_cdata and m_lsth at most *)
  assert (Hmd : mst (MS (mkSc (s_next s) (s_last s) md1 t1)) = mst (MS s)) by (destruct fb; injection Eu as <- <- <-; reflexivity).
  destruct unhandled; [reflexivity|].
  destruct (is_in_end_tag (s_tag s)); apply keeps_of_dres; intros [d' []];
    first [reflexivity | exact (conj eq_refl (conj Hmd eq_refl))].
Qed.
Lemma scanner_action_keeps a s c : keeps (MS s) (scanner_action ctl chunk a s c).
Proof. destruct a; try exact (conj eq_refl (conj eq_refl eq_refl)). apply s_finish_tag_name_keeps. Qed.
Lemma do_actions_keeps acts : forall m c, keeps m (do_actions ctl chunk base acts m c).
Proof.
  induction acts as [|a r IH]; intros m c; cbn [do_actions]; [cbn; auto|].
  assert (H : keeps m (do_action ctl chunk base a m c)) by (destruct m; [apply lexer_action_keeps | apply scanner_action_keeps]).
  destruct (do_action ctl chunk base a m c) as [m1 c1| | |]; try exact H.
  eapply keeps_weaken; [exact H | apply IH].
Qed.

(* an emitting action hands over the lexeme up to the consumed byte, without it (KExcl) or with it (KIncl) *)
Inductive akind := KNeutral | KExcl | KIncl.
Definition kind_of (a : action) : akind :=
  match a with
  | A_emit_text | A_emit_text_and_eof | A_emit_current_token_and_eof | A_emit_raw_without_token_and_eof => KExcl
  | A_emit_current_token | A_emit_raw_without_token | A_emit_tag => KIncl
  | _ => KNeutral
  end.

Lemma Mid_build valid strict l b c : Mid valid strict (ML l) c -> Mid valid strict (ML (l_with_build l b)) c.
Proof. exact (fun H => H). Qed.

Lemma l_emit_nontag_T valid (strict : bool) l c e t :
  Mid valid true (ML l) c -> lpos l <= e -> e <= len ->
  (if strict then e < lc_next (l_cur l) else e <= lc_next (l_cur l)) ->
  aT valid strict (l_emit_nontag ctl chunk base l c e t).
Proof.
  intros (H1 & H2 & H3 & H4 & H5 & H6 & H7) He1 He2 He3. cbn in H2, H3, H4, H6, H7. unfold lpos in He1.
  eapply aT_of_dres; [apply handle_non_tag_T; [exact H1 | exact H6 | cbn; lia | exact He2] | intros d' [HT Hle]].
  split_mid; auto.
Qed.
Lemma l_emit_excl_T valid l c t :
  Mid valid true (ML l) c -> aT valid true (l_emit_nontag ctl chunk base l c (lpos l) t).
Proof.
  intros HM. pose proof HM as (_ & H2 & H3 & _). cbn in H2, H3.
  apply l_emit_nontag_T; [exact HM | apply le_n | unfold lpos; lia | unfold lpos; lia].
Qed.
Lemma l_emit_incl_T l c t :
  Mid true true (ML l) c -> aT true false (l_emit_nontag ctl chunk base l c (lpos l + 1) t).
Proof.
  intros HM. pose proof HM as (_ & H2 & _ & H4 & _). cbn in H2, H4. specialize (H4 eq_refl).
  apply l_emit_nontag_T; [exact HM | lia | unfold lpos; lia | unfold lpos; lia].
Qed.
Lemma l_emit_text_T valid l c : Mid valid true (ML l) c -> aT valid true (l_emit_text ctl chunk base l c).
Proof. intro HM. unfold l_emit_text. destruct (_ <? _); [apply l_emit_excl_T; exact HM | exact HM]. Qed.
Lemma l_emit_eof_T valid l c : Mid valid true (ML l) c -> aT valid true (l_emit_eof ctl chunk base l c).
Proof. apply l_emit_excl_T. Qed.
(* a scanner result cannot occur here, but needs no exclusion: Mid does not look at strict for a scanner *)
Lemma then_lexer_T valid s1 s2 r k :
  aT valid s1 r -> (forall l c, Mid valid s1 (ML l) c -> aT valid s2 (k l c)) -> aT valid s2 (then_lexer r k).
Proof. intros Hr Hk. destruct r as [[l|s] c| | |]; cbn in *; auto. Qed.
Lemma then_eof_T valid r : aT valid true r -> aT valid true (then_lexer r (l_emit_eof ctl chunk base)).
Proof. intro H. apply (then_lexer_T valid true true r _ H). intros l c. apply l_emit_eof_T. Qed.

Lemma l_emit_tag_T l c : Mid true true (ML l) c -> aT true false (l_emit_tag ctl chunk base l c).
Proof.
  intros (H1 & H2 & H3 & H4 & H5 & H6 & H7). cbn in H2, H3, H4, H7. specialize (H4 eq_refl).
  unfold l_emit_tag. destruct (b_tag (l_build l)) as [t|]; [|split; discriminate].
  destruct (match b_fd (l_build l) with FdNone => _ | _ => _ end) as [[s1 fbo]|]; [|exact H1].
  destruct (match fbo with Some f => _ | None => _ end) as [[s2 ltt] cd].
  destruct (match t with StartTagO _ _ _ _ _ => _ | EndTagO _ _ => _ end) as [t' lh].
  unfold lpos in *.
  eapply aT_of_dres; [apply handle_tag_T; [exact H1 | exact H6 | cbn; lia | cbn; lia] | intros [d' dir] [HT' Hr']].
  cbn in Hr'. destruct dir; cbn.
  - split_mid; auto. cbn. split; [exact Hr' | lia].
  - split; [|exact I]. split; [exact HT'|]. unfold rcs_of; cbn. lia.
Qed.

Lemma lexer_neutral_T valid strict a l c :
  kind_of a = KNeutral -> Mid valid strict (ML l) c -> aT valid strict (lexer_action ctl chunk base a l c).
Proof.
  intros Hk HM. destruct a; cbn in Hk; try discriminate; cbn; try exact HM.
  destruct (b_tag (l_build l)) as [[|]|]; [exact HM | exact HM | split; discriminate].
Qed.
Lemma lexer_excl_T valid a l c :
  kind_of a = KExcl -> Mid valid true (ML l) c -> aT valid true (lexer_action ctl chunk base a l c).
Proof.
  intros Hk HM. destruct a; cbn in Hk; try discriminate; cbn.
  - apply then_eof_T, (l_emit_excl_T valid (l_with_build l _) c), HM.
  - apply then_eof_T, l_emit_excl_T, HM.
  - apply l_emit_text_T, HM.
  - apply then_eof_T, l_emit_text_T, HM.
Qed.
Lemma lexer_incl_T a l c :
  kind_of a = KIncl -> Mid true true (ML l) c -> aT true false (lexer_action ctl chunk base a l c).
Proof.
  intros Hk HM. destruct a; cbn in Hk; try discriminate; cbn.
  - apply (l_emit_incl_T (l_with_build l _) c); exact HM.
  - apply l_emit_incl_T; exact HM.
  - apply l_emit_tag_T; exact HM.
Qed.

Lemma Mid_scanner_tag valid strict s t' c :
  Mid valid strict (MS s) c -> ch_seq_start t' = ch_seq_start (s_tag s) ->
  (forall a, tag_start t' = Some a -> rcs_of c <= a /\ a <= len) ->
  Mid valid strict (MS (s_with_tag s t')) c.
Proof.
  intros (H1 & H2 & H3 & H4 & H5 & H6 & _) E Hm. exact (conj H1 (conj H2 (conj H3 (conj H4 (conj (eq_trans E H5) (conj H6 Hm)))))).
Qed.
Lemma Mid_ctx valid strict m c c' : Mid valid strict m c -> Tc c' -> rcs_of c' = rcs_of c -> Mid valid strict m c'.
Proof. intros (_ & H) HT E. unfold Mid. rewrite E. exact (conj HT H). Qed.
Lemma s_finish_tag_name_T valid strict strict' s c :
  Mid valid strict (MS s) c -> aT valid strict' (s_finish_tag_name ctl chunk s c).
Proof.
  (* the scanner emits nothing: it hands the tag to the controller as a hint, so sink and remaining_content_start stay;
     the tag start leaves the marks (Ht1), and if the controller asks for the lexer the bookmark is that tag start, which
     the marks keep at or after remaining_content_start (Hbm) *)
  intros HM. pose proof HM as (H1 & _ & _ & _ & H5 & _ & H7). cbn in H5.
  unfold s_finish_tag_name. destruct (tag_start (s_tag s)) as [tstart|] eqn:Ets; [|split; discriminate].
  pose proof (H7 tstart Ets) as Hts.
  destruct (if is_in_end_tag (s_tag s) then _ else _) as [[sim' fb]|]; [|exact H1].
  destruct (match fb with FbSwitch _ => _ | _ => _ end) as [[t1 md1] unhandled] eqn:Eu.
  assert (Ht1 : tag_start t1 = None /\ ch_seq_start t1 = None).
  { destruct fb; injection Eu as <- _ _; exact (conj eq_refl H5). }
  clear Eu. destruct unhandled.
  - exact (conj (conj H1 Hts) Ht1).
  - assert (Hsc : forall md2 d', T d' -> d_rcs d' = rcs_of c ->
                  Mid valid strict' (MS (mkSc (s_next s) (s_last s) md2 (st_set_end t1 false))) (mkCtx sim' d')).
    { intros md2 d' HT' Hr'. apply (Mid_ctx _ _ _ c); [|exact HT' | exact Hr'].
      apply (Mid_scanner_tag valid strict s (st_set_end t1 false) c HM); [rewrite H5; apply Ht1|].
      intros a Ha. cbn in Ha. rewrite (proj1 Ht1) in Ha. discriminate Ha. }
    assert (Hbm : forall cd ltt lh fd d', T d' -> d_rcs d' = rcs_of c -> Bm_ok (mkBm cd ltt lh tstart fd) (mkCtx sim' d')).
    { intros cd ltt lh fd d' HT' Hr'. split; [exact HT'|]. unfold rcs_of in *. cbn [c_disp bm_pos]. rewrite Hr'. exact Hts. }
    destruct (is_in_end_tag (s_tag s));
      (eapply aT_of_dres; [first [apply hint_end_T | apply hint_start_T]; exact H1 | intros [d' dir] [HT' Hr']]);
      destruct dir; first [exact (conj (Hbm _ _ _ _ _ HT' Hr') Ht1) | exact (Hsc _ _ HT' Hr')].
Qed.
Lemma scanner_action_T valid strict strict' a s c :
  Mid valid strict (MS s) c -> aT valid strict' (scanner_action ctl chunk a s c).
Proof.
  intros HM. destruct a; cbn; try exact HM.
  - exact (s_finish_tag_name_T _ _ _ _ _ HM).
  - apply Mid_scanner_tag; [exact HM | reflexivity|]. intros a [= <-].
    destruct HM as (_ & H2 & H3 & _ & _ & H6 & _). cbn in H2, H3, H6. unfold spos. lia.
  - apply Mid_scanner_tag; [exact HM | reflexivity | discriminate].
  - destruct (getb chunk (spos s)); exact HM.
Qed.

Lemma Mid_scanner_any valid s1 s2 s c : Mid valid s1 (MS s) c -> Mid valid s2 (MS s) c.
Proof. exact (fun H => H). Qed.

(* Strictness threaded through a list of actions: an inclusive emit needs a byte that is there (valid) and not yet
   emitted (strict) and leaves it emitted; after that only neutral actions may follow, and the cursor cannot be moved
   back (tr_ok). *)
Fixpoint acts_ok (valid : bool) (acts : list action) (strict : bool) : option bool :=
  match acts with
  | [] => Some strict
  | a :: r =>
      match kind_of a with
      | KNeutral => acts_ok valid r strict
      | KExcl => if strict then acts_ok valid r true else None
      | KIncl => if strict && valid then acts_ok valid r false else None
      end
  end.

Lemma acts_ok_cons valid a r strict :
  acts_ok valid (a :: r) strict = match acts_ok valid [a] strict with Some s => acts_ok valid r s | None => None end.
Proof. cbn. destruct (kind_of a); [reflexivity | destruct strict; reflexivity | destruct (strict && valid); reflexivity]. Qed.
Lemma do_action_T valid a strict strict' m c :
  acts_ok valid [a] strict = Some strict' -> Mid valid strict m c -> aT valid strict' (do_action ctl chunk base a m c).
Proof.
  intros Hok HM. destruct m as [l|s]; cbn [do_action].
  - cbn in Hok. destruct (kind_of a) eqn:Ek.
    + injection Hok as <-. apply lexer_neutral_T; assumption.
    + destruct strict; [|discriminate]. injection Hok as <-. apply lexer_excl_T; assumption.
    + destruct strict; [|discriminate]. destruct valid; [|discriminate]. injection Hok as <-. apply lexer_incl_T; assumption.
  - exact (scanner_action_T valid strict strict' a s c HM).
Qed.
Lemma do_actions_T valid acts : forall strict strict' m c,
  acts_ok valid acts strict = Some strict' -> Mid valid strict m c ->
  aT valid strict' (do_actions ctl chunk base acts m c).
Proof.
  induction acts as [|a r IH]; intros strict strict' m c Hok HM; cbn [do_actions].
  - injection Hok as <-. exact HM.
  - rewrite acts_ok_cons in Hok. destruct (acts_ok valid [a] strict) as [s1|] eqn:E1; [|discriminate].
    pose proof (do_action_T valid a strict s1 m c E1 HM) as H.
    destruct (do_action ctl chunk base a m c); cbn [aT] in H |- *; auto. exact (IH _ _ _ _ Hok H).
Qed.

Definition tr_ok (valid : bool) (tr : transition) (strict : bool) : bool :=
  match tr with T_reconsume _ => strict | T_none => true | _ => valid end.
Fixpoint alist_ok (valid : bool) (al : alist) : bool :=
  match al with
  | AL acts tr => match acts_ok valid acts true with Some s' => tr_ok valid tr s' && (valid || s') | None => false end
  | AL_if _ t e => alist_ok valid t && alist_ok valid e
  end.

Definition armT (valid : bool) (r : arm_out) : Prop :=
  match r with
  | Continue m' c' => Mid valid (negb valid) m' c'
  | Return m' c' => Bnd m' c'
  | Switch d b m' c' => Bm_ok b c' /\ sw_tags m'
  | ArmErr _ c' => Tc c'
  | ArmPanic k _ => k <> 10 /\ k <> 5
  end.

Lemma Mid_set_state valid strict m st e c : Mid valid strict m c -> Mid valid strict (set_state m st e) c.
Proof. destruct m; exact (fun H => H). Qed.

(* what the invariants read of a machine besides its cursor *)
Definition marks (m : mach) : nat + stag :=
  match m with ML l => inl (lc_lexeme_start (l_cur l)) | MS s => inr (s_tag s) end.
Lemma Bnd_of_Mid valid strict m c m' :
  Mid valid strict m c -> marks m' = marks m -> next_pos m' <= len ->
  next_pos m - (if strict then 1 else 0) <= next_pos m' -> Bnd m' c.
Proof.
  intros (H1 & _ & _ & _ & H5 & H6) Em Hl Hp. split; [exact H1|]. split; [exact Hl|].
  destruct m as [l|s], m' as [l'|s']; try discriminate Em; injection Em as Em; destruct H6 as [Ha Hb]; cbn in Hp |- *.
  - rewrite Em. split; [exact Ha | destruct strict; lia].
  - unfold marks_ok. rewrite Em. split; [destruct strict; lia|]. split; [exact Hb | left; exact H5].
Qed.
Lemma Bnd_of_Mid_continue m c strict : Mid true strict m c -> Bnd m c.
Proof. intro H. apply (Bnd_of_Mid true strict m c m H eq_refl); [apply H; reflexivity | apply Nat.le_sub_l]. Qed.
Lemma Bnd_of_Mid_goto m st c strict : Mid true strict m c -> Bnd (set_state m st false) c.
Proof. intro H. apply Bnd_of_Mid_continue with (strict := strict), Mid_set_state, H. Qed.
Lemma Bnd_of_Mid_back valid m st e c : Mid valid true m c -> Bnd (set_state (set_pos m (next_pos m - 1)) st e) c.
Proof.
  intro H. pose proof H as (_ & _ & H3 & _).
  apply (Bnd_of_Mid valid true m c _ H); destruct m; cbn in *; try reflexivity; lia.
Qed.

Lemma run_alist_T valid al : forall m c, alist_ok valid al = true -> Mid valid true m c -> armT valid (run_alist ctl chunk base al m c).
Proof.
  induction al as [acts tr|cd t IHt e IHe]; intros m c Hok HM; cbn in *.
  - destruct (acts_ok valid acts true) as [s'|] eqn:Ea; [|discriminate].
    apply andb_true_iff in Hok as [Htr Hvs].
    pose proof (do_actions_T valid acts true s' m c Ea HM) as H.
    destruct (do_actions ctl chunk base acts m c) as [m' c'| | |]; cbn in *; auto.
    destruct tr; cbn in *.
    + destruct valid; [destruct s'; [apply Mid_weaken|]; exact H | cbn in Hvs; subst s'; exact H].
    + subst valid. exact (Bnd_of_Mid_goto _ _ _ _ H).
    + subst s'. apply (Bnd_of_Mid_back valid); exact H.
    + subst valid. exact (Bnd_of_Mid_goto _ _ _ _ H).
  - apply andb_true_iff in Hok as [H1 H2]. destruct (eval_cond cd m); auto.
Qed.

Definition clr (m : mach) : mach := leave_seq m.
Lemma clr_enter m : leave_seq (enter_seq m) = clr m. Proof. destruct m; reflexivity. Qed.
Lemma clr_clr m : clr (clr m) = clr m. Proof. destruct m; reflexivity. Qed.
Lemma next_pos_clr m : next_pos (clr m) = next_pos m. Proof. destruct m; reflexivity. Qed.
Lemma next_pos_enter m : next_pos (enter_seq m) = next_pos m. Proof. destruct m; reflexivity. Qed.
Lemma next_pos_set_pos m p : next_pos (set_pos m p) = p. Proof. destruct m; reflexivity. Qed.
Lemma clr_seq_none m : seq_none m -> clr m = m.
Proof. destruct m as [l|[n la md [ts cs tn ie th pt]]]; [reflexivity | cbn; intros ->; reflexivity]. Qed.

(* a byte has been consumed, but a sequence start may still be recorded *)
Definition Mid0 (valid strict : bool) (m : mach) (c : ctx) : Prop := Mid valid strict (clr m) c.
Lemma Mid_of_Mid0 valid strict m c : Mid0 valid strict m c -> seq_none m -> Mid valid strict m c.
Proof. intros H Hs. rewrite <- (clr_seq_none m Hs). exact H. Qed.
Lemma Mid0_clr0 valid strict m c : Mid0 valid strict m c -> Mid0 valid strict (clr m) c.
Proof. unfold Mid0. rewrite clr_clr. exact (fun H => H). Qed.

(* the byte consumed last was the end of the chunk, or begins a sequence that the chunk cuts short *)
Definition brk_seq (m : mach) : Prop :=
  match m with
  | ML _ => True
  | MS s => (ch_seq_start (s_tag s) = None /\ len <= s_next s - 1)
            \/ (ch_seq_start (s_tag s) = Some (s_next s - 1) /\ s_next s - 1 <= len /\ seqst (MS s))
  end.
Definition Brk (m : mach) (c : ctx) : Prop := Mid0 false true m c /\ brk_seq m.
Lemma Mid_invalid valid strict m c : Mid valid strict m c -> Mid false strict m c.
Proof. intros (H1 & H2 & H3 & _ & H5). split; [exact H1|]. split; [exact H2|]. split; [exact H3|]. split; [discriminate | exact H5]. Qed.
Definition bT (r : body_out) : Prop :=
  match r with
  | BContinue m c => Bnd m c
  | BBreak m c => Brk m c
  | BSwitch d b m c => Bm_ok b c /\ sw_tags m
  | BErr _ c => Tc c
  | BPanic k _ => k <> 10 /\ k <> 5
  end.
Lemma of_arm_T r : armT true r -> bT (of_arm r).
Proof. destruct r; cbn; auto. apply Bnd_of_Mid_continue. Qed.

Lemma seq_rest_spec bsq ic : forall m depth,
  match seq_rest chunk bsq ic m depth with
  | SeqMatched m' => exists k, m' = leave_seq (set_pos m (next_pos m + k)) /\
                               (1 <= depth -> next_pos m + (depth - 1) <= len -> next_pos m + k <= len)
  | SeqBreak m' => m' = m
  | SeqNo m' => m' = leave_seq m
  end.
Proof.
  induction bsq as [|b r IH]; intros m depth; cbn.
  - exists (depth - 1). split; [reflexivity | intros _ Hb; exact Hb].
  - destruct (getb chunk (next_pos m + depth - 1)) as [ch|] eqn:Eg; [|destruct (is_last m); reflexivity].
    destruct (ch_eq ic ch b); [|reflexivity].
    specialize (IH m (S depth)). destruct (seq_rest chunk r ic m (S depth)); try exact IH.
    destruct IH as [k [E Hk]]. exists k. split; [exact E|]. intros Hd Hb. apply getb_lt in Eg. apply Hk; lia.
Qed.
Lemma seq_match_spec bsq ic ch m :
  match seq_match chunk bsq ic ch m with
  | SeqMatched m' => exists k, m' = set_pos (clr m) (next_pos (clr m) + k) /\
                               ((ch <> None -> next_pos m <= len) -> next_pos m + k <= len)
  | SeqBreak m' => m' = enter_seq m
  | SeqNo m' => m' = clr m
  end.
Proof.
  unfold seq_match. destruct bsq as [|b bs']; [apply clr_enter|].
  destruct ch as [c0|]; [|destruct (is_last (enter_seq m)); [apply clr_enter | reflexivity]].
  destruct (ch_eq ic c0 b); [|apply clr_enter].
  pose proof (seq_rest_spec bs' ic (enter_seq m) 1) as Hs. rewrite next_pos_enter in Hs.
  destruct (seq_rest chunk bs' ic (enter_seq m) 1); [|exact Hs | rewrite Hs; apply clr_enter].
  destruct Hs as [k [-> Hk]]. exists k. split; [destruct m; reflexivity|].
  intro Hl. specialize (Hl ltac:(discriminate)). apply Hk; [apply le_n | lia].
Qed.

Lemma Mid_advance valid m k c :
  Mid valid true m c -> next_pos m + k <= len -> Mid true true (set_pos m (next_pos m + k)) c.
Proof.
  intros (H1 & H2 & H3 & _ & H5 & H6) Hk. unfold Mid. rewrite next_pos_set_pos.
  split_mid; [exact H1 | lia | lia | intros _; exact Hk | destruct m; exact H5 |].
  destruct m as [l|s]; cbn in *; destruct H6 as [Ha Hb]; [split; [exact Ha | lia] | split; [lia | exact Hb]].
Qed.
Definition seqst_s (m : mach) : Prop := match m with MS _ => seqst m | ML _ => True end.
Lemma Brk_enter valid m c : Mid0 valid true m c -> seqst_s m -> Brk (enter_seq m) c.
Proof.
  intros HM Hq. split; [unfold Mid0, clr; rewrite clr_enter; exact (Mid_invalid valid true (clr m) c HM)|].
  destruct m as [l|s]; [exact I|]. destruct HM as (_ & _ & H3 & _). cbn in H3 |- *. unfold spos.
  right. split; [reflexivity|]. split; [lia | exact Hq].
Qed.

Definition seq_arms_ok (arms : list (pat * alist)) : bool :=
  forallb (fun pa => match fst pa with P_seq _ _ => alist_ok true (snd pa) | _ => true end) arms.

Lemma try_seq_arms_T arms : forall ch m c,
  seq_arms_ok arms = true -> Mid0 (match ch with Some _ => true | None => false end) true m c ->
  (has_seq_l arms = true -> seqst_s m) -> (has_seq_l arms = false -> seq_none m) ->
  match try_seq_arms ctl chunk base arms ch m c with
  | (_, Some o) => bT o
  | (m'', None) => m'' = clr m
  end.
Proof.
  induction arms as [|[p al] r IH]; intros ch m c Hok HM Hq Hn; cbn [try_seq_arms has_seq_l existsb seq_arms_ok forallb fst snd] in *;
    [symmetry; apply clr_seq_none, Hn; reflexivity|].
  apply andb_true_iff in Hok as [Ha Hr].
  destruct p; try (apply IH; assumption).
  cbn [orb].
  assert (Hl : ch <> None -> next_pos m <= len).
  { destruct ch; [intros _; rewrite <- (next_pos_clr m); apply HM; reflexivity | congruence]. }
  (* a sequence arm matches and runs its actions k bytes further on, or breaks at the end of the input with the start of
     the sequence recorded, or does not match and leaves the machine as clr m *)
  pose proof (seq_match_spec bs ignore_case ch m) as Hm.
  destruct (seq_match chunk bs ignore_case ch m) as [m'|m'|m'].
  - destruct Hm as [k [-> Hk]]. apply of_arm_T, run_alist_T; [exact Ha|].
    apply (Mid_advance _ _ k c HM). rewrite next_pos_clr. exact (Hk Hl).
  - subst m'. apply (Brk_enter _ _ _ HM), Hq. reflexivity.
  - subst m'. specialize (IH ch (clr m) c Hr (Mid0_clr0 _ _ _ _ HM)). rewrite clr_clr in IH.
    apply IH; [intro Hx; destruct m; apply Hq; reflexivity | intros _; destruct m; reflexivity].
Qed.

Definition arm_keeps (m : mach) (r : @arm_out C) : Prop :=
  match r with
  | Continue m' _ => isL m' = isL m /\ next_pos m' = next_pos m
  | Return m' _ | Switch _ _ m' _ => isL m' = isL m
  | _ => True
  end.
Lemma run_alist_keeps al : forall m c, arm_keeps m (run_alist ctl chunk base al m c).
Proof.
  induction al as [acts tr|cd t IHt e IHe]; intros m c; cbn [run_alist].
  - pose proof (do_actions_keeps acts m c) as H. destruct (do_actions ctl chunk base acts m c) as [m1 c1| | |]; try exact H.
    destruct H as (Ek & _ & Ep). destruct tr; cbn; rewrite <- Ek; auto; destruct m1; reflexivity.
  - destruct (eval_cond cd m); auto.
Qed.
Fixpoint al_no_trans (al : alist) : bool :=
  match al with AL _ T_none => true | AL _ _ => false | AL_if _ t e => al_no_trans t && al_no_trans e end.
Lemma run_alist_no_return al : forall m c m' c', al_no_trans al = true -> run_alist ctl chunk base al m c <> Return m' c'.
Proof.
  induction al as [acts tr|cd t IHt e IHe]; intros m c m' c' H; cbn [run_alist al_no_trans] in *.
  - destruct tr; try discriminate. destruct (do_actions ctl chunk base acts m c); cbn; discriminate.
  - apply andb_true_iff in H as [H1 H2]. destruct (eval_cond cd m); auto.
Qed.

Definition arm_ok (pa : pat * alist) : bool :=
  match fst pa with
  | P_eoc => alist_ok false (snd pa) && al_no_trans (snd pa)
  | P_eof => alist_ok false (snd pa)
  | _ => alist_ok true (snd pa)
  end.
Definition arms_ok (arms : list (pat * alist)) : bool := forallb arm_ok arms.

Lemma Brk_of_Mid m c : Mid false true m c -> len <= next_pos m - 1 -> Brk m c.
Proof.
  intros HM Hl. pose proof HM as (_ & _ & _ & _ & H5 & _). split; [unfold Mid0; rewrite (clr_seq_none m H5); exact HM|].
  destruct m as [l|s]; [exact I | left; exact (conj H5 Hl)].
Qed.

Lemma run_alist_brk al m c :
  alist_ok false al = true -> Mid false true m c -> len <= next_pos m - 1 ->
  match run_alist ctl chunk base al m c with Continue m' c' => Brk m' c' | o => armT false o end.
Proof.
  intros Ha HM Hl. pose proof (run_alist_T false al m c Ha HM) as H. pose proof (run_alist_keeps al m c) as Hke.
  destruct (run_alist ctl chunk base al m c); try exact H. apply Brk_of_Mid; [exact H|]. rewrite (proj2 Hke). exact Hl.
Qed.
Lemma arm_body_T p al ch m c :
  arm_ok (p, al) = true -> pat_matches p ch m = true ->
  Mid (match ch with Some _ => true | None => false end) true m c ->
  (ch = None -> len <= next_pos m - 1) ->
  bT (arm_body p m c (run_alist ctl chunk base al m c)).
Proof.
  unfold arm_ok. cbn [fst snd]. intros Ha Epm HM Hch. destruct ch as [c0|].
  - destruct p; try discriminate Epm; apply of_arm_T, run_alist_T; assumption.
  - specialize (Hch eq_refl). pose proof (run_alist_brk al m c) as H.
    destruct p; try discriminate Epm; cbn [arm_body].
    + apply andb_true_iff in Ha as [Ha Hnt]. specialize (H Ha HM Hch). pose proof (run_alist_no_return al m c) as Hnr.
      destruct (run_alist ctl chunk base al m c) as [|m' c'| | |]; try exact H. destruct (Hnr _ _ Hnt eq_refl).
    + destruct (is_last m); [|apply Brk_of_Mid; assumption].
      specialize (H Ha HM Hch). destruct (run_alist ctl chunk base al m c); exact H.
Qed.
Lemma try_arms_T arms : forall ch m c,
  arms_ok arms = true ->
  Mid (match ch with Some _ => true | None => false end) true m c ->
  (ch = None -> len <= next_pos m - 1) ->
  bT (try_arms ctl chunk base arms ch m c).
Proof.
  induction arms as [|[p al] r IH]; intros ch m c Hok HM Hch; [split; discriminate|].
  apply andb_true_iff in Hok as [Ha Hr]. rewrite try_arms_cons.
  destruct (pat_matches p ch m) eqn:Epm; [apply (arm_body_T p al ch) | apply IH]; assumption.
Qed.

Definition neutral_acts (acts : list action) : bool := forallb (fun a => match kind_of a with KNeutral => true | _ => false end) acts.
Definition state_ok (sd : state_def) : bool :=
  arms_ok sd.(sd_arms) && seq_arms_ok sd.(sd_arms) && neutral_acts sd.(sd_enter)
  && match memchr_of sd.(sd_arms) with Some _ => negb (has_seq_l sd.(sd_arms)) | None => true end.
Hypothesis table_ok : forall st, state_ok (table st) = true.

Lemma find_from_spec b : forall fuel i j, find_from chunk b i fuel = Some j -> i <= j /\ j < len.
Proof.
  induction fuel as [|f IH]; intros i j; cbn; [discriminate|].
  destruct (getb chunk i) as [c0|] eqn:Eg; [|discriminate].
  apply getb_lt in Eg. destruct (c0 =? b)%N; [intros [= <-]; lia|].
  intro E. apply IH in E. lia.
Qed.
Lemma neutral_acts_ok valid acts s : neutral_acts acts = true -> acts_ok valid acts s = Some s.
Proof.
  induction acts as [|a r IH]; cbn; [reflexivity|]. intro H. apply andb_true_iff in H as [H1 H2].
  destruct (kind_of a); try discriminate. apply IH; exact H2.
Qed.

Lemma Mid0_of_Bnd valid m c n :
  Bnd m c -> next_pos m <= n -> n <= len -> (valid = true -> n < len) ->
  Mid0 valid true (set_pos m (S n)) c.
Proof.
  intros (H1 & H2 & H3) Hn Hl Hv. unfold Mid0.
  split_mid; rewrite ?next_pos_clr, ?next_pos_set_pos; [exact H1 | lia | lia | intro Hx; specialize (Hv Hx); lia | destruct m; cbn; auto |].
  destruct m as [l|s]; cbn in *.
  - destruct H3 as [Ha Hb]. split; [exact Ha | lia].
  - destruct H3 as (Ha & Hb & _). split; [lia | exact Hb].
Qed.

Lemma Mid_of_Bnd valid m c n :
  Bnd m c -> seq_none m -> next_pos m <= n -> n <= len -> (valid = true -> n < len) -> Mid valid true (set_pos m (S n)) c.
Proof. intros HB Hs Hn Hl Hv. apply Mid_of_Mid0; [apply Mid0_of_Bnd; assumption | destruct m; exact Hs]. Qed.

Lemma body_iter_T m c :
  Bnd m c -> m_entered (mode_of m) = true -> bT (body_iter ctl chunk base (table (m_st (mode_of m))) m c).
Proof.
  intros HB Hen. pose proof (table_ok (m_st (mode_of m))) as Hok. unfold state_ok in Hok.
  apply andb_true_iff in Hok as [Hok Hmc]. apply andb_true_iff in Hok as [Hok _]. apply andb_true_iff in Hok as [Harms Hseq].
  set (sd := table (m_st (mode_of m))) in *.
  pose proof HB as (_ & Hnp & _).
  assert (Hsn : has_seq_l (sd_arms sd) = false -> seq_none m).
  { intro Hf. destruct (Bnd_seq m c HB) as [Hn|[_ Hh]]; [exact Hn|]. fold sd in Hh. congruence. }
  (* a memchr state jumps to the next occurrence of its byte, or to the end, and has no sequence arms; any other state
     consumes one byte, tries its sequence arms and then the rest *)
  unfold body_iter. destruct (memchr_of (sd_arms sd)) as [b|] eqn:Emc.
  - apply negb_true_iff in Hmc. specialize (Hsn Hmc).
    destruct (find_from chunk b (next_pos m) (S len)) as [i|] eqn:Ef.
    + destruct (find_from_spec _ _ _ _ Ef) as [Hi1 Hi2].
      apply try_arms_T; [exact Harms | apply Mid_of_Bnd; auto; lia | discriminate].
    + replace (Nat.max (next_pos m) len) with len by lia.
      apply try_arms_T; [exact Harms | apply Mid_of_Bnd; auto; discriminate | intros _; rewrite next_pos_set_pos; lia].
  - set (ch := getb chunk (next_pos m)). set (m' := set_pos m (S (next_pos m))).
    assert (HM0 : Mid0 (match ch with Some _ => true | None => false end) true m' c).
    { apply Mid0_of_Bnd; auto. subst ch. destruct (getb chunk (next_pos m)) eqn:Eg; [intros _; exact (getb_lt _ _ Eg) | discriminate]. }
    assert (Hq : has_seq_l (sd_arms sd) = true -> seqst_s m').
    { intro Hs. destruct m as [l|s]; [exact I | exact (conj Hen Hs)]. }
    assert (Hn : has_seq_l (sd_arms sd) = false -> seq_none m') by (intro Hf; destruct m; exact (Hsn Hf)).
    pose proof (try_seq_arms_T (sd_arms sd) ch m' c Hseq HM0 Hq Hn) as Hts.
    destruct (try_seq_arms ctl chunk base (sd_arms sd) ch m' c) as [m'' [o|]]; [exact Hts|].
    subst m''.
    apply try_arms_T; [exact Harms | exact HM0 |].
    intro Hnone. apply nth_error_None in Hnone. rewrite next_pos_clr. subst m'. rewrite next_pos_set_pos. lia.
Qed.

Lemma isL_clr m : isL (clr m) = isL m. Proof. destruct m; reflexivity. Qed.
Lemma isL_enter m : isL (enter_seq m) = isL m. Proof. destruct m; reflexivity. Qed.
Lemma isL_set_pos m n : isL (set_pos m n) = isL m. Proof. destruct m; reflexivity. Qed.
Lemma isL_set_state m st e : isL (set_state m st e) = isL m. Proof. destruct m; reflexivity. Qed.
Lemma adjust_keeps m : isL (adjust_for_next_input m) = isL m /\ next_pos (adjust_for_next_input m) = next_pos m.
Proof. destruct m as [l|s]; [split; reflexivity|]. cbn. destruct (tag_start (s_tag s)); split; reflexivity. Qed.
Lemma run_loop_kind fuel m c : lP (fun m' _ => isL m' = isL m) (fun _ => True) (run_loop ctl chunk base fuel m c).
Proof.
  apply (run_loop_P ctl chunk base); auto.
  - intros m1 c1 p <-. apply isL_set_pos.
  - intros m1 c1 s e <-. apply isL_set_state.
  - intros bsq ic ch m1 c1 <-. pose proof (seq_match_spec bsq ic ch m1) as Hs.
    destruct (seq_match chunk bsq ic ch m1); cbn; [destruct Hs as [k [-> _]]; rewrite isL_set_pos | subst; apply isL_enter | subst]; apply isL_clr.
  - intros m1 c1 <-. apply adjust_keeps.
  - intros a m1 c1 <-. pose proof (do_actions_keeps [a] m1 c1) as H. cbn [do_actions] in H.
    destruct (do_action ctl chunk base a m1 c1); try exact I; apply H.
Qed.


(* what the next parse call (on the unconsumed tail, with remaining_content_start = 0) starts from *)
Definition Next (m : mach) (k : nat) : Prop :=
  next_pos m <= k /\
  match m with
  | ML l => lc_lexeme_start (l_cur l) = 0
  | MS s => (forall a, tag_start (s_tag s) = Some a -> a = 0) /\ (ch_seq_start (s_tag s) = None \/ seqst (MS s))
  end.
Definition lT (r : loop_res) : Prop :=
  match r with
  | LEnd m c n => Tc c /\ rcs_of c <= n /\ n <= len /\ (is_last m = false -> Next m (len - n))
  | LSwitch d b m c => Bm_ok b c /\ sw_tags m
  | LErr _ c => Tc c
  | LPanic k _ => k <> 10 /\ k <> 5
  | LFuel _ => True
  end.

Lemma Bnd_set_entered m c : Bnd m c -> Bnd (set_state m (m_st (mode_of m)) true) c.
Proof.
  intros (H1 & H2 & H3). split; [exact H1|]. split; [destruct m; exact H2|]. destruct m as [l|s]; cbn in *; [exact H3|].
  destruct H3 as (Ha & Hb & Hc). split; [exact Ha|]. split; [exact Hb|]. destruct Hc as [Hn|[_ Hh]]; [left; exact Hn | right; split; [reflexivity | exact Hh]].
Qed.

Lemma Brk_end m c :
  Brk m c ->
  let consumed := consumed_count chunk m in
  (consumed <= next_pos m - 1 /\ rcs_of c <= consumed /\ consumed <= len) /\
  (is_last m = false -> Next (set_pos (adjust_for_next_input m) (next_pos m - 1 - consumed)) (len - consumed)).
Proof.
  (* consumed_count is the lexeme start (lexer) or the earlier of tag start and sequence start (scanner): all before it
     has been emitted or skipped, and what is kept for the next call is re-based to 0 *)
  intros [(H1 & H2 & H3 & _ & _ & H4) Hc]. rewrite next_pos_clr in H2, H3. cbv zeta. split.
  - destruct m as [l|s]; cbn in *; [lia|]. destruct H4 as (Ha & Hb).
    assert (Hr : rcs_of c <= len) by apply H1.
    destruct (tag_start (s_tag s)) as [a|] eqn:Et; [destruct (Hb a Et)|]; destruct Hc as [[-> Hl]|(-> & Hl & _)]; lia.
  - intros _. split; [rewrite next_pos_set_pos; lia|].
    destruct m as [l|s]; [reflexivity|]. cbn in Hc |- *.
    destruct (tag_start (s_tag s)) eqn:Et; cbn; rewrite ?Et;
      (split; [intros a0 E; congruence | destruct Hc as [[Hn _]|(_ & _ & Hq)]; [left; exact Hn | right; exact Hq]]).
Qed.


(* The entry actions of every state are neutral (table_ok), so they run under the invariant of a consumed end
   marker and the cursor is then put back where it was. *)
Lemma enter_state_T m c :
  Bnd m c ->
  match enter_state ctl chunk base m c with
  | AOk m1 c1 => Bnd m1 c1 /\ m_entered (mode_of m1) = true /\ m_st (mode_of m1) = m_st (mode_of m)
  | ASwitch d b m' c' => Bm_ok b c' /\ sw_tags m'
  | AErr _ c' => Tc c'
  | APanic k _ => k <> 10 /\ k <> 5
  end.
Proof.
  intro HB. unfold enter_state. destruct (m_entered (mode_of m)) eqn:Een; [auto|].
  destruct (sd_enter (table (m_st (mode_of m)))) as [|a acts] eqn:Ee.
  - split; [apply Bnd_set_entered; exact HB|]. destruct m; cbn; auto.
  - pose proof (table_ok (m_st (mode_of m))) as Hok. unfold state_ok in Hok.
    apply andb_true_iff in Hok as [Hok _]. apply andb_true_iff in Hok as [_ Hne]. rewrite Ee in Hne.
    assert (HM : Mid false true (set_pos m (S (next_pos m))) c).
    { apply Mid_of_Bnd; [exact HB | destruct (Bnd_seq m c HB) as [Hn|[He _]]; [exact Hn | congruence] | apply le_n | apply HB | discriminate]. }
    set (m0 := set_pos m (S (next_pos m))) in *.
    pose proof (do_actions_T false (a :: acts) true true m0 c (neutral_acts_ok false _ true Hne) HM) as Hd.
    pose proof (do_actions_keeps (a :: acts) m0 c) as Hk.
    destruct (do_actions ctl chunk base (a :: acts) m0 c) as [x c'|d b x c'| |]; cbn [aT keeps] in *; try exact Hd.
    destruct Hk as (_ & Es & _). split; [apply (Bnd_of_Mid_back false); exact Hd|]. split; [destruct x; reflexivity|].
    subst m0. destruct x, m; exact (f_equal fst Es).
Qed.

Lemma end_of_chunk_T m c : Brk m c -> lT (end_of_chunk chunk m c).
Proof.
  intro HB. pose proof (Brk_end m c HB) as ((Hc1 & Hc2 & Hc3) & Hc4). unfold end_of_chunk. cbv zeta in *.
  set (m3 := if is_last m then m else adjust_for_next_input m).
  assert (E3 : isL m3 = isL m /\ next_pos m3 = next_pos m) by (subst m3; destruct (is_last m); [split; reflexivity | apply adjust_keeps]).
  destruct E3 as [Ek Ep]. unfold pos. rewrite Ep. destruct (Nat.leb_spec (consumed_count chunk m) (next_pos m - 1)); [|lia].
  split; [apply HB|]. split; [exact Hc2|]. split; [exact Hc3|].
  intro Hl. assert (Hl2 : is_last m = false) by (rewrite <- Hl; symmetry; exact (f_equal snd (eq_trans (isL_set_pos m3 _) Ek))).
  subst m3. rewrite Hl2. exact (Hc4 Hl2).
Qed.

Lemma run_loop_T fuel : forall m c, Bnd m c -> lT (run_loop ctl chunk base fuel m c).
Proof.
  induction fuel as [|f IH]; intros m c HB; [exact I|]. rewrite run_loop_S.
  pose proof (enter_state_T m c HB) as H1.
  destruct (enter_state ctl chunk base m c) as [m1 c1| | |]; cbn [lT]; try exact H1.
  destruct H1 as (HB1 & Hen1 & Hst1). rewrite <- Hst1.
  pose proof (body_iter_T m1 c1 HB1 Hen1) as H2.
  destruct (body_iter ctl chunk base (table (m_st (mode_of m1))) m1 c1) as [m2 c2|m2 c2| | |]; try exact H2; [apply IH | apply end_of_chunk_T]; exact H2.
Qed.

Definition active (p : parser) : mach := match p_dir p with Lex => ML (p_lexer p) | Scan => MS (p_scanner p) end.
Definition PI (p : parser) : Prop := p_dir p = Lex -> tags_none (p_scanner p).
Definition pT (last : bool) (r : parse_res) : Prop :=
  match r with
  | POk p' c' n => Tc c' /\ rcs_of c' <= n /\ n <= len /\ PI p' /\ (last = false -> Next (active p') (len - n))
  | PErr _ c' => Tc c'
  | PPanic k _ => k <> 10 /\ k <> 5
  | PFuel _ => True
  end.
Lemma Bnd_set_last m c b : Bnd m c -> Bnd (set_last m b) c.
Proof. destruct m; exact (fun H => H). Qed.
Lemma Bnd_bookmark m b c : Bm_ok b c -> sw_tags m -> Bnd (continue_from_bookmark m b) c.
Proof.
  intros (H1 & H2 & H3) Ht. split; [exact H1|]. split; [destruct m; exact H3|].
  destruct m as [l|s]; cbn.
  - split; [exact H2 | apply le_n].
  - destruct Ht as [Ht1 Ht2]. split; [exact H2|]. split; [intros a Ha; cbn in Ha; congruence | left; exact Ht2].
Qed.

Lemma parse_loop_T fuel : forall p c last start,
  PI p ->
  match start with None => Bnd (active p) c | Some b => Bm_ok b c /\ tags_none (p_scanner p) end ->
  pT last (parse_loop ctl chunk base fuel p c last start).
Proof.
  induction fuel as [|f IH]; intros p c last start HPI Hst; cbn [parse_loop]; [exact I|].
  fold (active p).
  set (m1 := set_last (match start with Some b => continue_from_bookmark (active p) b | None => active p end) last).
  assert (HB : Bnd m1 c).
  { subst m1. apply Bnd_set_last. destruct start as [b|]; [|exact Hst]. destruct Hst as [Hb Ht].
    apply Bnd_bookmark; [exact Hb|]. unfold active. destruct (p_dir p); [exact I | exact Ht]. }
  assert (Hk : isL m1 = (match p_dir p with Lex => true | Scan => false end, last)).
  { subst m1. unfold active. destruct start, (p_dir p); reflexivity. }
  pose proof (run_loop_T (loop_fuel chunk) m1 c HB) as H. pose proof (run_loop_kind (loop_fuel chunk) m1 c) as Hkm. rewrite Hk in Hkm.
  destruct (run_loop ctl chunk base (loop_fuel chunk) m1 c) as [m c' n|d b m c'|e c'|k c'|c']; cbn [lT pT lP] in *; auto.
  - destruct H as (HT & Hr1 & Hr2 & Hn).
    split; [exact HT|]. split; [exact Hr1|]. split; [exact Hr2|].
    injection Hkm as Hk1 <-.
    destruct m as [l|s]; destruct (p_dir p) eqn:Ed; try discriminate Hk1; unfold PI, active; cbn.
    + split; [intros _; apply HPI; exact Ed | exact Hn].
    + split; [discriminate | exact Hn].
  - destruct H as (Hb & Hsw). injection Hkm as Hk1 _.
    assert (Ht : tags_none (p_scanner (match m with ML l => mkP l (p_scanner p) d | MS s => mkP (p_lexer p) s d end))).
    { destruct m as [l|s]; [apply HPI; destruct (p_dir p); [reflexivity | discriminate] | exact Hsw]. }
    apply IH; [intros _; exact Ht | exact (conj Hb Ht)].
Qed.
End Chunk.

Hypothesis table_ok : forall st, state_ok (table st) = true.

Definition buffered (s : stream) : bytes := if s_has_buf s then ar_data (s_arena s) else [].
Definition sd_ (s : stream) : disp := c_disp (s_ctx s).
(* between two calls, after the bytes R have been written *)
Definition G (s : stream) (R : bytes) : Prop :=
  sb (sd_ s) ++ buffered s = R /\ d_rcs (sd_ s) = 0 /\ d_emission (sd_ s) = true /\ PI (s_parser s)
  /\ Next (active (s_parser s)) (length (buffered s)).

Lemma Bnd_of_Next chunk S0 m (c : ctx) k :
  Next m k -> k <= length chunk -> T chunk S0 (c_disp c) -> d_rcs (c_disp c) = 0 -> Bnd chunk S0 m c.
Proof.
  intros [Hn Hm] Hk HT Hr. split; [exact HT|]. split; [exact (Nat.le_trans _ _ _ Hn Hk)|]. unfold rcs_of. rewrite Hr.
  destruct m as [l|s]; cbn in *.
  - rewrite Hm. split; [apply le_n | apply Nat.le_0_l].
  - destruct Hm as [Ha Hb]. split; [apply Nat.le_0_l|]. split; [|exact Hb]. intros a E. rewrite (Ha a E). split; [apply le_n | apply Nat.le_0_l].
Qed.

(* outcome of one call, in terms of the bytes written so far (R') *)
Definition call_post (s' : stream) (res : call_res) (R' : bytes) (bail_on : rw_error -> bool) : Prop :=
  match res with
  | COk => G s' R'
  | CErr e =>
      if bail_on e then exists pre B post, sb (sd_ s') = pre ++ B ++ post /\ pre ++ post = R'
      else exists post, sb (sd_ s') ++ post = R'
  | CPanic k => k <> 10 /\ k <> 5
  end.

Lemma sb_flush_for_bail_out (d : disp) input : sb (flush_for_bail_out d input) = sb d ++ skipn (d_rcs d) input.
Proof. unfold flush_for_bail_out. change (sb (d_with_rcs ?x 0)) with (sb x). apply sb_push_nonempty. Qed.
Lemma sb_run_bail (d : disp) e : exists B, sb (run_bail_out_handlers ctl d e) = sb d ++ B /\ d_rcs (run_bail_out_handlers ctl d e) = d_rcs d.
Proof.
  unfold run_bail_out_handlers. destruct (c_bail_out ctl (d_ctl d) e) as [c' ps]. exists (List.concat ps).
  rewrite sb_pieces, pieces_rcs. split; reflexivity.
Qed.

Lemma arena_append_data a o M slice a' : arena_append a o M slice = (a', true) -> ar_data a' = ar_data a ++ slice.
Proof. unfold arena_append. destruct (_ <? _); [destruct (limiter_ok _ _)|]; intros [= <-]; reflexivity. Qed.
Definition flush_tail (r : nat) (fl : list bytes) : bytes :=
  match fl with [] => [] | x :: rest => skipn r x ++ List.concat rest end.
Lemma sb_fold_flush fl : forall d : disp, sb (fold_left flush_for_bail_out fl d) = sb d ++ flush_tail (d_rcs d) fl.
Proof.
  destruct fl as [|x rest]; intro d; cbn [fold_left flush_tail]; [rewrite app_nil_r; reflexivity|].
  assert (H : forall l (d1 : disp), d_rcs d1 = 0 -> sb (fold_left flush_for_bail_out l d1) = sb d1 ++ List.concat l).
  { induction l as [|y l IH]; intros d1 Hr; cbn; [rewrite app_nil_r; reflexivity|].
    rewrite IH by reflexivity. rewrite sb_flush_for_bail_out, Hr, <- app_assoc. reflexivity. }
  rewrite H by reflexivity. rewrite sb_flush_for_bail_out, <- app_assoc. reflexivity.
Qed.
Lemma bail_post (s1 : stream) (d : disp) e fl R' (f : rw_error -> bool) :
  f e = should_bail_out_for s1 e -> sb d ++ flush_tail (d_rcs d) fl = R' ->
  call_post (fst (bail ctl s1 d e fl)) (snd (bail ctl s1 d e fl)) R' f.
Proof.
  intros Hf HR. unfold bail. destruct (should_bail_out_for s1 e) eqn:Eb; cbn [fst snd call_post]; rewrite Hf.
  - destruct (sb_run_bail d e) as [B [HB1 HB2]].
    exists (sb d), B, (flush_tail (d_rcs d) fl). split; [|exact HR].
    unfold sd_, with_disp; cbn [s_ctx c_disp]. rewrite sb_fold_flush, HB1, HB2, <- app_assoc. reflexivity.
  - exists (flush_tail (d_rcs d) fl). exact HR.
Qed.

Lemma parse_G s R chunk ext last :
  G s R -> length (buffered s) <= length chunk ->
  pT chunk (sb (sd_ s)) last
     (parse_loop ctl chunk (s_prev s) (parse_fuel chunk) (s_parser s) (mkCtx (c_sim (s_ctx s)) (d_with_ext (sd_ s) ext)) last None).
Proof.
  intros (Hsb & Hr0 & Hem & HPI & Hnx) Hlen.
  assert (HT0 : T chunk (sb (sd_ s)) (d_with_ext (sd_ s) ext)).
  { split; [cbn; rewrite Hr0; cbn; rewrite app_nil_r; reflexivity|]. split; [cbn; rewrite Hr0; apply Nat.le_0_l | exact Hem]. }
  apply (parse_loop_T chunk (s_prev s) (sb (sd_ s)) table_ok); [exact HPI|].
  eapply Bnd_of_Next; [exact Hnx | exact Hlen | exact HT0 | exact Hr0].
Qed.
Lemma flush_remaining_T chunk S0 (d : disp) n :
  T chunk S0 d -> d_rcs d <= n -> n <= length chunk ->
  sb (flush_remaining_input d chunk n) ++ skipn n chunk = S0 ++ chunk
  /\ d_rcs (flush_remaining_input d chunk n) = 0 /\ d_emission (flush_remaining_input d chunk n) = true.
Proof.
  intros HT H1 H2. unfold flush_remaining_input. rewrite (proj2 (proj2 HT)), (leb_between H1 H2).
  pose proof (T_push chunk S0 d n HT H1 H2) as HT'.
  exact (conj (T_rest chunk S0 _ HT') (conj eq_refl (proj2 (proj2 HT')))).
Qed.

Lemma write_T s data R :
  G s R ->
  call_post (fst (write ctl s data)) (snd (write ctl s data)) (R ++ data) (should_bail_out_for s).
Proof.
  intros HG. pose proof HG as (Hsb & Hr0 & _). unfold write. unfold sd_ in Hr0.
  destruct (if s_has_buf s then arena_append (s_arena s) _ (s_max_mem s) data else (s_arena s, true)) as [ar1 ok] eqn:Ea.
  destruct ok; cbn [negb].
  2: { destruct (s_has_buf s) eqn:Hb; [|discriminate Ea].
    apply bail_post; [reflexivity|].
    rewrite Hr0. cbn [flush_tail skipn List.concat]. rewrite app_nil_r.
    unfold buffered in Hsb. rewrite Hb in Hsb. rewrite <- Hsb, <- app_assoc. reflexivity. }
  set (chunk := if s_has_buf s then ar_data ar1 else data).
  assert (Hchunk : chunk = buffered s ++ data).
  { subst chunk. unfold buffered. destruct (s_has_buf s); [exact (arena_append_data _ _ _ _ _ Ea) | reflexivity]. }
  pose proof (parse_G s R chunk (ar_charged ar1) false HG ltac:(rewrite Hchunk, app_length; lia)) as Hp.
  assert (HR : sb (sd_ s) ++ chunk = R ++ data) by (rewrite Hchunk, app_assoc, Hsb; reflexivity).
  destruct (parse_loop ctl chunk _ _ _ _ false None) as [p' c' n|e c'|k c'|c']; cbn [pT] in Hp.
  - destruct Hp as (HT' & Hn1 & Hn2 & HPI' & Hnx'). specialize (Hnx' eq_refl).
    destruct (flush_remaining_T chunk (sb (sd_ s)) (c_disp c') n HT' Hn1 Hn2) as (Hd1 & Hd2 & Hd3).
    set (d := flush_remaining_input (c_disp c') chunk n) in *.
    (* whichever way the stream keeps it, what stays buffered is the unconsumed tail of the chunk *)
    assert (HG' : forall ar (hb : bool), (if hb then ar_data ar else []) = skipn n chunk ->
              G (mkS p' (mkCtx (c_sim c') d) ar hb (s_prev s + n) (s_max_mem s) (s_bail_mem s) (s_bail_handler s)) (R ++ data)).
    { intros ar hb Hbuf. unfold G, sd_, buffered; cbn [s_ctx c_disp s_arena s_has_buf s_parser]. rewrite Hbuf, skipn_length.
      split; [rewrite Hd1; exact HR | exact (conj Hd2 (conj Hd3 (conj HPI' Hnx')))]. }
    destruct (Nat.ltb_spec n (length chunk)).
    + destruct (s_has_buf s) eqn:Hb.
      * apply HG'. reflexivity.
      * subst chunk.
        destruct (arena_init_with ar1 (c_mem_usage ctl (d_ctl d)) (s_max_mem s) (skipn n data)) as [ar2 ok2] eqn:Ei.
        destruct ok2; cbn [fst snd call_post].
        -- apply HG'. exact (arena_append_data _ _ _ _ _ Ei).
        -- apply bail_post; [reflexivity|]. fold d. rewrite Hd2. cbn [flush_tail skipn List.concat]. rewrite app_nil_r.
           rewrite Hd1. exact HR.
    + apply HG'. rewrite skipn_all2 by assumption. reflexivity.
  - apply bail_post; [destruct e; reflexivity|]. cbn [flush_tail List.concat]. rewrite app_nil_r, (T_rest _ _ _ Hp). exact HR.
  - exact Hp.
  - split; discriminate.
Qed.

Definition finish_post (s' : stream) (res : call_res) (R : bytes) (bail_on : rw_error -> bool) : Prop :=
  match res with
  | COk => exists c, sb (sd_ s') = R ++ List.concat (snd (fst (c_end ctl c)))
  | CErr e => (exists c, sb (sd_ s') = R ++ List.concat (snd (fst (c_end ctl c)))) \/ call_post s' (CErr e) R bail_on
  | CPanic k => k <> 10 /\ k <> 5
  end.
Lemma finish_T s R :
  G s R -> finish_post (fst (finish ctl s)) (snd (finish ctl s)) R (should_bail_out_for s).
Proof.
  intros HG. pose proof HG as (Hsb & _). unfold finish. fold (buffered s). fold (sd_ s).
  pose proof (parse_G s R (buffered s) (ar_charged (s_arena s)) true HG (le_n _)) as Hp.
  destruct (parse_loop ctl (buffered s) _ _ _ _ true None) as [p' c' n|e c'|k c'|c']; cbn [pT] in Hp.
  - destruct Hp as (HT' & Hn1 & Hn2 & _).
    destruct (flush_remaining_T _ _ _ (length (buffered s)) HT' (Nat.le_trans _ _ _ Hn1 Hn2) (le_n _)) as (Hd & _).
    rewrite skipn_all, app_nil_r, Hsb in Hd.
    set (d := flush_remaining_input (c_disp c') (buffered s) (length (buffered s))) in *.
    destruct (c_end ctl (d_ctl d)) as [[cc pieces] r] eqn:Ee.
    assert (Hc : sb (sink_pieces (d_with_ctl d cc) pieces) = R ++ List.concat (snd (fst (c_end ctl (d_ctl d)))))
      by (rewrite Ee, sb_pieces; cbn [fst snd]; change (sb (d_with_ctl d cc)) with (sb d); rewrite Hd; reflexivity).
    destruct r as [e|]; cbn [fst snd finish_post]; unfold sd_; cbn [s_ctx c_disp].
    + left. exists (d_ctl d). exact Hc.
    + exists (d_ctl d). rewrite sb_push, app_nil_r. exact Hc.
  - pose proof (bail_post s (c_disp c') e [buffered s] R (should_bail_out_for s) eq_refl) as Hb.
    cbn [flush_tail List.concat] in Hb. rewrite app_nil_r, (T_rest _ _ _ Hp), (bail_err ctl) in Hb.
    rewrite (bail_err ctl). right. exact (Hb Hsb).
  - exact Hp.
  - split; discriminate.
Qed.

Lemma G_init cfg c0 : G (new_stream ctl cfg c0) [].
Proof.
  unfold G, new_stream, sd_, buffered, sb. cbn. split; [reflexivity|]. split; [reflexivity|]. split; [reflexivity|].
  split; [intros _; split; reflexivity|].
  unfold active. cbn. destruct (next_dir (c_initial_flags ctl c0)); cbn; split; auto. split; [intros a E; discriminate | left; reflexivity].
Qed.

Lemma writes_G : forall chunks (r0 : rewriter) R,
  G (rw_stream r0) R -> rw_poisoned r0 = false -> rw_ended r0 = false ->
  forall r res, api_run ctl r0 (map Write chunks) = (r, res) -> Forall (fun x => x = ROk) res ->
  G (rw_stream r) (R ++ List.concat chunks) /\ rw_poisoned r = false /\ rw_ended r = false.
Proof.
  intros chunks r0 R HG Hp He r res. apply (writes_run ctl G); [|exact HG | exact Hp | exact He].
  intros s R1 data s' H E. pose proof (write_T s data R1 H) as Hw. rewrite E in Hw. exact Hw.
Qed.

(* C01: observers that add nothing at the end of the document *)
Theorem pass_through cfg c0 chunks r res :
  (forall c, snd (fst (c_end ctl c)) = []) ->
  api_run ctl (new_rewriter ctl cfg c0) (map Write chunks ++ [End]) = (r, res) ->
  Forall (fun x => x = ROk) res ->
  sink_bytes (rw_sink r) = List.concat chunks.
Proof.
  intros Hend Eq Hall. rewrite api_run_app in Eq.
  destruct (api_run ctl (new_rewriter ctl cfg c0) (map Write chunks)) as [r1 x1] eqn:E1.
  destruct (api_run ctl r1 [End]) as [r2 x2] eqn:E2. injection Eq as <- <-.
  apply Forall_app in Hall as [Hall1 Hall2].
  destruct (writes_G chunks (new_rewriter ctl cfg c0) [] (G_init cfg c0) eq_refl eq_refl r1 x1 E1 Hall1) as (HG & Hp & He).
  cbn in E2. unfold api_step in E2. rewrite He, Hp in E2.
  pose proof (finish_T (rw_stream r1) _ HG) as Hf.
  destruct (finish ctl (rw_stream r1)) as [s' cr]. cbn [fst snd] in Hf.
  destruct cr; injection E2 as <- <-; [|discriminate (Forall_inv Hall2) ..].
  destruct Hf as [c Hc]. rewrite Hend, app_nil_r in Hc. exact Hc.
Qed.

(* C11 / C12: the first failing write.  With graceful bail-out the sink holds prefix ++ bail-out content ++ the
   rest of the received bytes; without it, a prefix of the received bytes. *)
Theorem first_failing_write cfg c0 chunks data r res r' e :
  api_run ctl (new_rewriter ctl cfg c0) (map Write chunks) = (r, res) ->
  Forall (fun x => x = ROk) res ->
  api_step ctl r (Write data) = (r', RErr e) ->
  let received := List.concat chunks ++ data in
  if should_bail_out_for (rw_stream r) e
  then exists pre B post, sink_bytes (rw_sink r') = pre ++ B ++ post /\ pre ++ post = received
  else exists post, sink_bytes (rw_sink r') ++ post = received.
Proof.
  intros E1 Hall Es.
  destruct (writes_G chunks (new_rewriter ctl cfg c0) [] (G_init cfg c0) eq_refl eq_refl r res E1 Hall) as (HG & Hp & He).
  unfold api_step in Es. rewrite He, Hp in Es.
  pose proof (write_T (rw_stream r) data _ HG) as Hw.
  destruct (write ctl (rw_stream r) data) as [s' cr]. cbn [fst snd] in Hw.
  destruct cr; try discriminate Es. injection Es as <- <-. exact Hw.
Qed.

(* C15 (slice arithmetic): no call ever hits the slice / cursor-underflow panics of the model *)
Theorem no_slice_panic_in_any_call cfg c0 ops r res k :
  api_run ctl (new_rewriter ctl cfg c0) ops = (r, res) -> In (RPanic k) res -> k <> 10 /\ k <> 5.
Proof.
  intros Eq Hin.
  enough (H : Forall (fun x => forall j, x = RPanic j -> j <> 10 /\ j <> 5) res) by exact (proj1 (Forall_forall _ _) H _ Hin k eq_refl).
  apply (api_run_Q ctl (fun s => exists R, G s R) _) with (6 := fun _ _ => ex_intro _ [] (G_init cfg c0)) (7 := Eq); try (intros j [=]).
  - intros s data [R HG]. pose proof (write_T s data R HG) as Hw.
    destruct (write ctl s data) as [s' [|e|j]]; [exists (R ++ data); exact Hw | intros j [=] | intros j' [= <-]; exact Hw].
  - intros s [R HG]. pose proof (finish_T s R HG) as Hf. destruct (snd (finish ctl s)); [exact I | intros j [=] | intros j' [= <-]; exact Hf].
Qed.
Theorem no_slice_panic cfg c0 chunks r res k :
  api_run ctl (new_rewriter ctl cfg c0) (map Write chunks) = (r, res) ->
  In (RPanic k) res -> k <> 10 /\ k <> 5.
Proof. apply no_slice_panic_in_any_call. Qed.
End Tiling.
