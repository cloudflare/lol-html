(* C08/C16: the setters' validators as read from the source (gen/Constants.v) are exactly the delimiter sets of the
   HTML syntax that would change the token structure of a re-serialised tag or comment. *)
From LolModel Require Import Rewriter.
Import ListNotations.
Local Open Scope N_scope.

(* written from the HTML standard (13.1.2 start tags / attributes, 13.6 comments), not from the code *)
Definition spec_tag_name_delimiter (c : N) : bool := is_ws c || (c =? 47) || (c =? 62).          (* whitespace, '/', '>' *)
Definition spec_attr_name_delimiter (c : N) : bool := spec_tag_name_delimiter c || (c =? 61).   (* ... and '=' *)
Definition spec_comment_bad_infix : list bytes := [bs "-->"; bs "--!>"].
Definition spec_comment_bad_prefix : list bytes := [bs ">"; bs "->"].

Lemma existsb_eqb_in c l : existsb (N.eqb c) l = true <-> In c l.
Proof.
  rewrite existsb_exists. split.
  - intros [x [H E]]. apply N.eqb_eq in E as ->. exact H.
  - intros H. exists c. split; [exact H | apply N.eqb_refl].
Qed.

(* the generated lists are compared with the standard's by membership, in whatever order they come *)
Lemma existsb_eqb_same l l' c :
  forallb (fun x => existsb (N.eqb x) l') l = true -> forallb (fun x => existsb (N.eqb x) l) l' = true ->
  existsb (N.eqb c) l = existsb (N.eqb c) l'.
Proof.
  rewrite !forallb_forall. intros H H'. apply eq_true_iff_eq. rewrite !existsb_eqb_in.
  split; intros Hc; [apply existsb_eqb_in, H, Hc | apply existsb_eqb_in, H', Hc].
Qed.

Theorem tag_name_validator_is_the_delimiter_set c : existsb (N.eqb c) TAG_NAME_FORBIDDEN = spec_tag_name_delimiter c.
Proof.
  (* the standard's bytes in the order its predicate tests them: existsb over them unfolds to it *)
  rewrite (existsb_eqb_same _ [32; 10; 13; 9; 12; 47; 62] c) by reflexivity.
  cbn [existsb]. rewrite orb_false_r, !orb_assoc. reflexivity.
Qed.
Theorem attr_name_validator_is_the_delimiter_set c : existsb (N.eqb c) ATTR_NAME_FORBIDDEN = spec_attr_name_delimiter c.
Proof.
  rewrite (existsb_eqb_same _ (TAG_NAME_FORBIDDEN ++ [61]) c) by reflexivity.
  rewrite existsb_app, tag_name_validator_is_the_delimiter_set. cbn [existsb]. rewrite orb_false_r. reflexivity.
Qed.
Theorem comment_validator_shapes : COMMENT_BAD_INFIX = spec_comment_bad_infix /\ COMMENT_BAD_PREFIX = spec_comment_bad_prefix.
Proof. split; reflexivity. Qed.
Theorem accepted_comment_text t : comment_text_bad t = false ->
  has_infix t (bs "-->") = false /\ has_infix t (bs "--!>") = false /\ starts_with t (bs ">") = false /\ starts_with t (bs "->") = false.
Proof.
  unfold comment_text_bad. destruct comment_validator_shapes as [-> ->]. unfold spec_comment_bad_infix, spec_comment_bad_prefix. cbn [existsb].
  rewrite !orb_false_r. intros H. apply orb_false_iff in H as [H1 H2]. apply orb_false_iff in H1 as [? ?], H2 as [? ?]. auto.
Qed.
Theorem accepted_attr_name_has_no_delimiter n : attr_name_check n = None -> n <> [] /\ forallb (fun c => negb (spec_attr_name_delimiter c)) n = true.
Proof.
  unfold attr_name_check. destruct n as [|x n]; [discriminate|]. destruct (find _ (x :: n)) eqn:Ef; [discriminate|]. intros _. split; [discriminate|].
  apply forallb_forall. intros c Hc. rewrite <- attr_name_validator_is_the_delimiter_set. apply negb_true_iff.
  apply (find_none _ _ Ef c Hc).
Qed.
Theorem accepted_tag_name_has_no_delimiter n : tag_name_check n = None ->
  (exists c r, n = c :: r /\ is_alpha c = true) /\ forallb (fun c => negb (spec_tag_name_delimiter c)) n = true.
Proof.
  unfold tag_name_check. destruct n as [|x n]; [discriminate|]. destruct (is_alpha x) eqn:Ea; cbn [negb]; [|discriminate].
  destruct (find _ (x :: n)) eqn:Ef; [discriminate|]. intros _. split; [exists x, n; auto|].
  apply forallb_forall. intros c Hc. rewrite <- tag_name_validator_is_the_delimiter_set. apply negb_true_iff.
  apply (find_none _ _ Ef c Hc).
Qed.
