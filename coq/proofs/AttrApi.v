(* C16: the attribute API of a start tag as list algebra: lookups are "first ASCII-case-insensitive match",
   set_attribute rewrites that match in place (or appends), remove_attribute deletes every match and keeps the order. *)
From LolModel Require Import Rewriter.
From LolProofs Require Import TokenLaws.
Import ListNotations.
Open Scope nat_scope.

Lemma eq_ci_is_ignore_case : forall a n, eq_ci a (lower_bytes n) = eq_ignore_case a n.
Proof.
  unfold lower_bytes. induction a as [|x a IH]; intros [|y n]; cbn [map eq_ci eq_ignore_case]; try reflexivity.
  rewrite IH. reflexivity.
Qed.
Lemma attr_matches_is_name_equality n a : attr_matches (lower_bytes n) a = eq_ignore_case (at_name a) n.
Proof. apply eq_ci_is_ignore_case. Qed.

Lemma no_match_iff n l :
  Forall (fun x => attr_matches (lower_bytes n) x = false) l <-> Forall (fun x => eq_ignore_case (at_name x) n = false) l.
Proof. split; apply Forall_impl; intros a; rewrite attr_matches_is_name_equality; exact (fun h => h). Qed.

Lemma find_first {A} (f : A -> bool) l x : find f l = Some x <->
  exists pre post, l = pre ++ x :: post /\ Forall (fun y => f y = false) pre /\ f x = true.
Proof.
  split.
  - induction l as [|y l IH]; cbn [find]; [discriminate|]. destruct (f y) eqn:Ey.
    + intros [= <-]. exists [], l. auto.
    + intros E. destruct (IH E) as (pre & post & -> & Hp & Hx). exists (y :: pre), post. auto.
  - intros (pre & post & -> & Hp & Hx). induction Hp as [|y pre Hy _ IH]; cbn [app find]; [rewrite Hx | rewrite Hy]; auto.
Qed.
Theorem get_attribute_returns_the_first_match t n v : attr_name_check (lower_bytes n) = None ->
  (stt_get_attr t n = Some v <->
   exists pre a post, stt_attrs t = pre ++ a :: post /\ Forall (fun x => eq_ignore_case (at_name x) n = false) pre /\
                      eq_ignore_case (at_name a) n = true /\ at_value a = v).
Proof.
  intros Hc. unfold stt_get_attr. rewrite Hc. split.
  - destruct (find _ _) as [a|] eqn:Ef; [|discriminate]. intros [= <-].
    apply find_first in Ef as (pre & post & E & Hp & Ha). exists pre, a, post.
    rewrite <- no_match_iff, <- attr_matches_is_name_equality. auto.
  - intros (pre & a & post & E & Hp & Ha & <-). rewrite <- no_match_iff in Hp. rewrite <- attr_matches_is_name_equality in Ha.
    rewrite (proj2 (find_first _ _ a)); [reflexivity | exists pre, post; auto].
Qed.
Theorem get_attribute_none_iff_no_match t n : attr_name_check (lower_bytes n) = None ->
  (stt_get_attr t n = None <-> Forall (fun x => eq_ignore_case (at_name x) n = false) (stt_attrs t)).
Proof.
  intros Hc. unfold stt_get_attr. rewrite Hc, <- no_match_iff, <- find_none_iff.
  destruct (find _ _); split; (reflexivity || discriminate).
Qed.

Theorem set_attribute_in_place_or_append t n v t' : stt_set_attr t n v = inl t' ->
  (exists pre a post, stt_attrs t = pre ++ a :: post /\ Forall (fun x => eq_ignore_case (at_name x) n = false) pre /\
                      eq_ignore_case (at_name a) n = true /\ stt_attrs t' = pre ++ mkAt (at_name a) v None None :: post) \/
  (Forall (fun x => eq_ignore_case (at_name x) n = false) (stt_attrs t) /\ stt_attrs t' = stt_attrs t ++ [mkAt (lower_bytes n) v None None]).
Proof.
  intros E. destruct (set_attr_spec E) as [_ [(pre & a & post & Et & Hp & Ha & Et')|[Hp Et']]]; apply no_match_iff in Hp.
  - left. exists pre, a, post. rewrite <- attr_matches_is_name_equality. auto.
  - right. auto.
Qed.
Theorem remove_attribute_filters t n : attr_name_check (lower_bytes n) = None ->
  stt_attrs (stt_remove_attr t n) = filter (fun a => negb (eq_ignore_case (at_name a) n)) (stt_attrs t).
Proof.
  intros Hc. rewrite (remove_attr_attrs t n Hc). apply filter_ext. intros a. rewrite attr_matches_is_name_equality. reflexivity.
Qed.
Theorem invalid_attribute_names_are_inert t n v e : attr_name_check (lower_bytes n) = Some e ->
  stt_get_attr t n = None /\ stt_set_attr t n v = inr e /\ stt_remove_attr t n = t.
Proof. intros Hc. unfold stt_get_attr, stt_set_attr, stt_remove_attr. rewrite Hc. auto. Qed.
