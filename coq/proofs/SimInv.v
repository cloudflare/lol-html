(* C15: along every sequence of simulator calls that follows the request protocol the namespace stack is never empty, its
   top is current_ns and its bottom is the HTML namespace, so `leave_ns`'s
   debug_assert!(false, "Namespace stack should always have at least one item") is unreachable, also through the
   breakout path that leaves all directly nested foreign roots (leave_foreign_content, fix F16). *)
From LolModel Require Import TreeBuilder.

Definition SInv (s : sim) : Prop :=
  exists r, ns_stack s = cur_ns s :: r /\ last (ns_stack s) Html = Html.

Lemma SInv_init b : SInv (init_sim b).
Proof. exists []. split; reflexivity. Qed.

Lemma ns_eqb_eq a b : ns_eqb a b = true <-> a = b.
Proof. destruct a, b; cbn; split; intro H; try reflexivity; discriminate. Qed.

Lemma last_cons2 (a b : ns) r d : last (a :: b :: r) d = last (b :: r) d.
Proof. reflexivity. Qed.

(* what leaving a namespace needs of the stack *)
Definition deep (st : list ns) : Prop := (exists a b r, st = a :: b :: r) /\ last st Html = Html.
Lemma foreign_deep s : SInv s -> ns_eqb (cur_ns s) Html = false -> deep (ns_stack s).
Proof.
  intros [r [E L]] Hf. destruct r as [|b r]; [|split; [exists (cur_ns s), b, r; exact E | exact L]].
  rewrite E in L. cbn in L. rewrite L in Hf. discriminate.
Qed.

Lemma drop_foreign_eq a b c r :
  drop_foreign (a :: b :: c :: r) = if ns_eqb b Html then a :: b :: c :: r else drop_foreign (b :: c :: r).
Proof. reflexivity. Qed.
Lemma deep_drop st : deep st -> deep (drop_foreign st).
Proof.
  induction st as [|a st IH]; intro H; [exact H|]. destruct st as [|b [|c r]]; try exact H.
  rewrite drop_foreign_eq. destruct (ns_eqb b Html); [exact H|].
  apply IH. split; [exists b, c, r; reflexivity | exact (proj2 H)].
Qed.

(* the two requests that end in a leave are only made on a deep stack *)
Definition req_ok (k : req_kind) (s : sim) : Prop :=
  match k with RqFont | RqAnnotationEnd => deep (ns_stack s) | _ => True end.

(* the request protocol: tag feedback is asked for only while no request is pending, the lexeme callback runs only for
   the pending request.  Machine.v calls the simulator this way: s_finish_tag_name and l_emit_tag ask fb_start / fb_end once
   per tag (the lexer not at all when the scanner's answer reaches it as FdApply / FdSkip) and apply_feedback runs a returned
   request on that tag before the next tag is asked about.  This is seen by reading: no theorem ties sim_run to the machine. *)
Inductive sim_ev := EvStart (h : N) | EvEnd (h : N) | EvLexeme (t : tag_outline).
Definition pend (f : feedback) : option req_kind := match f with FbRequest k => Some k | _ => None end.
Definition sim_step (part : range -> bytes) (st : sim * option req_kind) (ev : sim_ev) : option (sim * option req_kind) :=
  match ev, snd st with
  | EvStart h, None => match fb_start (fst st) h with None => None | Some (s', f) => Some (s', pend f) end
  | EvEnd h, None => Some (fst (fb_end (fst st) h), pend (snd (fb_end (fst st) h)))
  | EvLexeme t, Some k => Some (fst (run_request part k (fst st) t), pend (snd (run_request part k (fst st) t)))
  | _, _ => None
  end.
Fixpoint sim_run part (st : sim * option req_kind) (evs : list sim_ev) : option (sim * option req_kind) :=
  match evs with
  | [] => Some st
  | ev :: r => match sim_step part st ev with None => None | Some st' => sim_run part st' r end
  end.
Definition J (st : sim * option req_kind) : Prop :=
  SInv (fst st) /\ match snd st with Some k => req_ok k (fst st) | None => True end.
Definition ok (x : sim * feedback) : Prop := J (fst x, pend (snd x)).

Lemma ok_enter s n : SInv s -> ok (enter_ns s n).
Proof. intros [r [E L]]. split; [|exact I]. exists (ns_stack s). split; [reflexivity|]. cbn. rewrite E in *. exact L. Qed.
Lemma ok_leave s : deep (ns_stack s) -> ok (leave_ns s).
Proof. intros [[a [b [r E]]] L]. unfold leave_ns. rewrite E in *. split; [|exact I]. exists r. split; [reflexivity | exact L]. Qed.
Lemma ok_leave_foreign s : deep (ns_stack s) -> ok (leave_foreign s).
Proof. intro H. exact (ok_leave (mkSim _ _ _ _) (deep_drop _ H)). Qed.

Lemma ok_start_foreign s h : SInv s -> deep (ns_stack s) -> ok (fb_start_foreign s h).
Proof.
  intros Hs Hd. unfold fb_start_foreign.
  destruct (causes_foreign_content_exit h); [exact (ok_leave_foreign s Hd)|].
  destruct (is_ip_enter s h); [split; [exact Hs | exact I]|].
  destruct (tt_at _ 0 h); [split; [exact Hs | exact Hd]|].
  destruct (_ && _); split; try exact Hs; exact I.
Qed.
Lemma ok_start s h x : SInv s -> fb_start s h = Some x -> ok x.
Proof.
  intros Hs. unfold fb_start.
  destruct (if strict s then guard_track_start (guard s) h else Some (guard s)) as [g|]; [|discriminate].
  set (s1 := mkSim (ns_stack s) (cur_ns s) g (strict s)). assert (Hg : SInv s1) by exact Hs.
  intro E. injection E as <-.
  destruct (tt_at _ 0 h); [exact (ok_enter s1 Svg Hg)|].
  destruct (tt_at _ 1 h); [exact (ok_enter s1 MathML Hg)|].
  destruct (ns_eqb (cur_ns s) Html) eqn:Hn; cbn [negb].
  - split; [exact Hg|]. unfold text_type_adjust. cbn [snd]. repeat destruct (tt_at _ _ h); exact I.
  - exact (ok_start_foreign s1 h Hg (foreign_deep s1 Hg Hn)).
Qed.
Lemma ok_end s h : SInv s -> ok (fb_end s h).
Proof.
  intros Hs. unfold fb_end.
  set (s1 := if strict s then _ else s).
  assert (Hg : SInv s1) by (unfold s1; destruct (strict s); exact Hs).
  clearbody s1. clear Hs s.
  destruct (ns_eqb (cur_ns s1) Html) eqn:Hh.
  - unfold check_ip_exit. destruct (ns_stack s1) as [|a [|prev r]] eqn:E; try (split; [exact Hg | exact I]).
    assert (Hd : deep (ns_stack s1)) by (destruct Hg as [_ [_ L]]; split; [exists a, prev, r; exact E | exact L]).
    destruct (_ || _); [exact (ok_leave s1 Hd)|].
    destruct (_ && _); split; try exact Hg; try exact I. exact Hd.
  - pose proof (foreign_deep s1 Hg Hh) as Hd.
    destruct (should_leave_ns s1 h); [|split; [exact Hg | exact I]].
    destruct (tt_at _ 2 h); [exact (ok_leave_foreign s1 Hd) | exact (ok_leave s1 Hd)].
Qed.
Lemma ok_request part k s t : SInv s -> req_ok k s -> ok (run_request part k s t).
Proof.
  intros Hs Hk. assert (Hkeep : ok (s, FbNone)) by (split; [exact Hs | exact I]).
  destruct k, t; cbn [run_request]; try exact Hkeep.
  - destruct self_closing; [exact Hkeep | exact (ok_enter s Html Hs)].
  - destruct (existsb _ attrs); [exact (ok_leave_foreign s Hk) | exact Hkeep].
  - destruct (_ && _); [|exact Hkeep]. destruct (existsb _ attrs); [exact (ok_enter s Html Hs) | exact Hkeep].
  - destruct (eq_ci _ _); [exact (ok_leave s Hk) | exact Hkeep].
Qed.

Lemma J_step part st ev st' : J st -> sim_step part st ev = Some st' -> J st'.
Proof.
  intros [Hs Hp]. destruct st as [s p]. unfold sim_step. cbn [fst snd] in *.
  destruct ev as [h|h|t], p as [k|]; try discriminate.
  - destruct (fb_start s h) as [[s1 f]|] eqn:E; [|discriminate]. intro X. injection X as <-. exact (ok_start s h _ Hs E).
  - intro X. injection X as <-. exact (ok_end s h Hs).
  - intro X. injection X as <-. exact (ok_request part k s t Hs Hp).
Qed.

Theorem namespace_stack_invariant : forall part evs st st', J st -> sim_run part st evs = Some st' -> J st'.
Proof.
  intros part evs. induction evs as [|ev r IH]; intros st st' HJ; cbn [sim_run].
  - intro E. injection E as <-. exact HJ.
  - destruct (sim_step part st ev) as [st1|] eqn:E; [|discriminate]. intro R. exact (IH st1 st' (J_step part st ev st1 HJ E) R).
Qed.

Theorem namespace_stack_never_empty : forall part strict evs s p,
  sim_run part (init_sim strict, None) evs = Some (s, p) ->
  exists r, ns_stack s = cur_ns s :: r /\ last (ns_stack s) Html = Html.
Proof.
  intros part strict evs s p R.
  assert (HJ : J (init_sim strict, None)) by (split; [apply SInv_init|exact I]).
  destruct (namespace_stack_invariant part evs _ _ HJ R) as [A _]. exact A.
Qed.

Local Open Scope string_scope.
Definition h (s : string) : N := hash_of (bs s).
(* not vacuous: <svg><math><math><i> leaves both math roots and the svg root at once; </math> afterwards changes nothing *)
Example stack_example :
  match sim_run (fun _ => []) (init_sim false, None) [EvStart (h "svg"); EvStart (h "math"); EvStart (h "math")] with
  | Some (s, _) => ns_stack s = [MathML; MathML; Svg; Html] | None => False end /\
  match sim_run (fun _ => []) (init_sim false, None) [EvStart (h "svg"); EvStart (h "math"); EvStart (h "math"); EvStart (h "i"); EvEnd (h "math")] with
  | Some (s, _) => ns_stack s = [Html] | None => False end.
Proof. vm_compute. split; reflexivity. Qed.
