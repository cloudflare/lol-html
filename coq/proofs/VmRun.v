(* C04: at every start tag of every tag sequence start_matching gets the ids the AST denotes at the new element, which are
   (SelLR, AstSem) the selectors matching it in CSS; every tag keeps the stack invariant of VmStack.v. *)
From LolModel Require Import Rewriter.
From LolSpec Require Import CssSem.
From LolProofs Require Import Scope CssPred StackTree Bailout TypedCounters AstSem SelLR Frontier VmExec CompileRepr VmStack.
Import ListNotations.
Open Scope nat_scope.

(* the VM tests attribute views, the tree's element has their (name, value) pairs: views_of makes these views without raw
   text and locations (norm), which no test reads *)
Definition pairs (avs : list attr_view) : list (bytes * bytes) := map (fun a => (av_name a, av_value a)) avs.
Definition norm (a : attr_view) : attr_view := mkAV (av_name a) (av_value a) [] None.
Lemma views_pairs avs : views_of (pairs avs) = map norm avs.
Proof. unfold views_of, pairs. rewrite map_map. reflexivity. Qed.
Lemma attr_find_norm avs n : attr_find (map norm avs) n = option_map norm (attr_find avs n).
Proof. unfold attr_find. induction avs as [|a l IH]; cbn [map find norm av_name]; [reflexivity|]. destruct (_ && _); [reflexivity | exact IH]. Qed.
Lemma eval_attr_norm avs html e : eval_attr_expr (map norm avs) html e = eval_attr_expr avs html e.
Proof. destruct e; cbn [eval_attr_expr]; unfold attr_value; rewrite attr_find_norm; destruct (attr_find avs _); reflexivity. Qed.
Lemma all_attr_norm avs html l : all_attr (map norm avs) html l = all_attr avs html l.
Proof. unfold all_attr. induction l as [|[e neg] l IH]; cbn [forallb fst snd]; [reflexivity|]. rewrite eval_attr_norm, IH. reflexivity. Qed.

(* the stack keeps per-type counters only if the program uses :nth-of-type (vs_typed); without them a test reading
   ss_typed panics.  Where the VM's test returns a value, the element's own state (st_of: both indices) returns it too *)
Lemma eval_tag_weaken {st st' name e b} : eval_tag_expr st name e = Some b ->
  ss_cumulative st = ss_cumulative st' -> (forall z, ss_typed st = Some z -> ss_typed st' = Some z) -> eval_tag_expr st' name e = Some b.
Proof.
  intros E Hc Ht. destruct e; cbn [eval_tag_expr] in *; try exact E.
  - rewrite <- Hc. exact E.
  - destruct (ss_typed st) as [z|] eqn:Ez; [|discriminate]. rewrite (Ht z eq_refl). exact E.
Qed.
Lemma all_tag_weaken {st st' name l b} : all_tag st name l = Some b ->
  ss_cumulative st = ss_cumulative st' -> (forall z, ss_typed st = Some z -> ss_typed st' = Some z) -> all_tag st' name l = Some b.
Proof.
  intros E Hc Ht. revert b E. induction l as [|[e neg] l IH]; intros b E; cbn [all_tag] in *; [exact E|].
  destruct (eval_tag_expr st name e) as [v|] eqn:Ev; [|discriminate]. rewrite (eval_tag_weaken Ev Hc Ht).
  destruct (neg_if neg v); [apply IH; exact E | exact E].
Qed.

Lemma ptest_is_holds {s t} name n avs sc c {p b} :
  Rfull s t -> small (length (siblings t)) ->
  si_name (ec_item c) = K name -> ec_ns c = n ->
  ptest (stack_add_child s (K name)) avs c p = Some b -> holds (fst (on_start t name n (pairs avs) sc)) p = b.
Proof.
  intros Hf Hs Hn Hns. unfold ptest, holds, vm_predicate. rewrite Hn, Hns.
  set (el := fst (on_start t name n (pairs avs) sc)). change (name_of el) with (K name).
  destruct (indices_after_add_child s t name Hf Hs) as [Hc Ht].
  destruct (all_tag (build_state (stack_add_child s (K name)) (K name)) (K name) (p_tag p)) as [v|] eqn:Et; [|discriminate].
  rewrite (all_tag_weaken (st' := st_of el) Et Hc).
  - change (e_attrs el) with (pairs avs). rewrite views_pairs, all_attr_norm. change (html_of el) with (ns_eqb n Html).
    destruct v; intros E; injection E as <-; reflexivity.
  - intros z Hz. destruct (vs_typed s) eqn:Ety; [rewrite Ht in Hz by discriminate; exact Hz|].
    unfold build_state in Hz. cbn [ss_typed] in Hz. rewrite typed_of_add_child, Ety in Hz. discriminate.
Qed.

Definition chain_of (t : tree_state) : list elem := rev (map o_el (t_open t)).
Record Inv (prog : program) (root : list ast_node) (c : rwc) (t : tree_state) : Prop := mkInv {
  inv_prog : r_prog c = Some prog;
  inv_entry : rrange prog (pr_entry prog) root;
  inv_full : Rfull (r_stack c) t;
  inv_si : SI prog (vs_items (r_stack c)) (chain_of t) ([], root);
  inv_hj : vs_active_hj (r_stack c) = ahj (vs_items (r_stack c)) }.
Definition stack_ok prog root (s : vstack) (t : tree_state) : Prop :=
  Rfull s t /\ SI prog (vs_items s) (chain_of t) ([], root) /\ vs_active_hj s = ahj (vs_items s).
Lemma Inv_of_stack_ok {prog root c t} : r_prog c = Some prog -> rrange prog (pr_entry prog) root ->
  stack_ok prog root (r_stack c) t -> Inv prog root c t.
Proof. intros Hp He [Hf [Hsi Hhj]]. constructor; assumption. Qed.
Lemma stack_ok_of_Inv {prog root c t} : Inv prog root c t -> stack_ok prog root (r_stack c) t.
Proof. intros [_ _ Hf Hsi Hhj]. exact (conj Hf (conj Hsi Hhj)). Qed.

Definition bump (it : stack_item) : stack_item := mkSI it.(si_name) it.(si_data) it.(si_jumps) it.(si_hjumps) (inc32 it.(si_children)).
Lemma pj_map_last items : pj (Selectors.map_last bump items) = pj items.
Proof. destruct items as [|x l _] using rev_ind; [reflexivity|]. rewrite map_last_snoc. unfold pj. rewrite !rev_app_distr. reflexivity. Qed.

Lemma chain_add_child t name : chain_of (add_child_tree t name) = chain_of t.
Proof. unfold chain_of, add_child_tree. destruct (t_open t); reflexivity. Qed.
(* counting a child changes si_children of the innermost item, which neither item_ok nor ahj reads *)
Lemma add_child_keeps {prog root s t} name : stack_ok prog root s t -> small (length (siblings t)) ->
  stack_ok prog root (stack_add_child s (K name)) (add_child_tree t name).
Proof.
  intros [Hf [Hsi Hhj]] Hsm. split; [exact (Rfull_add_child s t name Hf Hsm)|].
  rewrite chain_add_child, stack_add_child_eq. cbn [vs_items vs_active_hj]. rewrite Hhj. revert Hsi.
  destruct (vs_items s) as [|x items _] using rev_ind; intros Hsi; [split; [exact Hsi | reflexivity]|].
  rewrite map_last_snoc, !ahj_snoc. split; [exact (SI_last prog x (bump x) (fun _ _ H => H) Hsi) | reflexivity].
Qed.
Lemma push_keeps {prog root s t it name el isz mi o mx s' ch} : stack_ok prog root s t ->
  stack_push s it isz mi o mx = (s', ch, true) -> item_ok prog it el (fold_left fstep (chain_of t) ([], root)) ->
  si_name it = K name -> si_children it = 0%Z -> e_name el = name ->
  stack_ok prog root s' (mkTree (mkOpen el [] :: t_open t) (t_root_children t)).
Proof.
  intros [Hf [Hsi Hhj]] Hpush Hok Hn Hc He. split; [exact (full_push s t it name el _ _ _ _ _ _ Hf Hn Hc He Hpush)|].
  destruct (stack_push_true Hpush) as [_ [_ [-> ->]]].
  split; [exact (SI_snoc prog it el Hsi Hok) | rewrite ahj_snoc, Hhj; reflexivity].
Qed.
Lemma pop_keeps {prog root s t} name : stack_ok prog root s t -> stack_ok prog root (fst (stack_pop_up_to s (K name))) (on_end t name).
Proof.
  intros [Hf [Hsi Hhj]]. split; [exact (full_pop s t name Hf)|]. unfold K.
  destruct (pop_spec s t name (proj1 Hf)) as [[pre Epre] ->]. cbn [fst]. unfold on_end in *.
  destruct (close_to name (t_open t)) as [rest|]; [|split; assumption]. cbn [t_open vs_items vs_active_hj] in *.
  replace (chain_of (mkTree rest (t_root_children t))) with (firstn (length rest) (chain_of t)).
  - split; [apply SI_firstn; exact Hsi | rewrite Hhj; apply ahj_firstn].
  - unfold chain_of. cbn [t_open]. rewrite Epre. apply firstn_rev_map_app.
Qed.

Theorem start_tag_step {prog root c t ext name n avs sc c'} :
  Inv prog root c t -> small (length (siblings t)) -> vm_on_start c ext name n avs sc = Some c' ->
  Inv prog root c' (snd (on_start t name n (pairs avs) sc)) /\
  exists c1 ec' f, finish_exec c1 ext ec' = (c', FOk f) /\ r_locators c1 = r_locators c /\ ec_with_content ec' = stays_open name n sc /\
    forall x, In x (ed_matched (si_data (ec_item ec'))) <-> In x (den_any root (chain_of t ++ [fst (on_start t name n (pairs avs) sc)])).
Proof.
  intros Hi Hsm Hrun. pose proof (stack_ok_of_Inv Hi) as Hok. destruct Hi as [Hp He _ _ _].
  destruct (vm_on_start_exec Hp Hrun) as [c1 [ec' [f [Hs1 [Hp1 [Hl1 [Hex Hfin]]]]]]]. fold (K name) in Hs1, Hex.
  set (el := fst (on_start t name n (pairs avs) sc)).
  pose proof (add_child_keeps name Hok Hsm) as Hok1. pose proof Hok1 as [_ [Hsi1 Hhj1]].
  set (ec := mkEC (mkSI (K name) (mkED [] None false) [] [] 0%Z) (stays_open name n sc) n) in Hex.
  pose proof (exec_all_is_frontier_step prog _ avs (SI_frontier prog He Hsi1 Hhj1) Hex
                (fun p b => ptest_is_holds name n avs sc ec (proj1 Hok) Hsm eq_refl eq_refl) eq_refl eq_refl eq_refl) as Hit.
  apply exec_all_with_attrs_sig in Hex. injection Hex as Ename Ekids Eopen _.
  cbn [ec ec_item ec_with_content si_name si_children] in Ename, Eopen, Ekids, Hit.
  split.
  - destruct (finish_exec_stack Hfin) as [Hp' Hst]. rewrite Eopen, Hs1 in Hst.
    apply Inv_of_stack_ok; [rewrite Hp'; exact Hp1 | exact He |]. rewrite on_start_eq. cbn zeta. fold el.
    destruct (stays_open name n sc); [|rewrite Hst; exact Hok1].
    destruct Hst as [isz [mi [other [mx [ch Hpush]]]]]. exact (push_keeps Hok1 Hpush Hit Ename Ekids eq_refl).
  - exists c1, ec', f. refine (conj Hfin (conj Hl1 (conj Eopen _))).
    intros x. rewrite (proj2 (proj2 Hit) x), chain_add_child. symmetry. apply den_any_is_frontier.
Qed.

Theorem end_tag_step {prog root c t name c' f} :
  Inv prog root c t -> rw_end_tag c name (hash_of name) = (c', f) -> Inv prog root c' (on_end t name).
Proof.
  intros Hi E. pose proof (pop_keeps name (stack_ok_of_Inv Hi)) as Hok. destruct Hi as [Hp He _ _ _].
  destruct (rw_end_tag_stack c name ltac:(rewrite Hp; discriminate)) as [A B]. rewrite E in A, B. cbn [fst] in A, B.
  apply Inv_of_stack_ok; [rewrite A; exact Hp | exact He | rewrite B; exact Hok].
Qed.

(* StackTree.tree_run and never_wraps with the elements' attributes kept *)
Fixpoint tree_run_a (t : tree_state) (ops : list tagop) : tree_state :=
  match ops with
  | [] => t
  | OpStart name n avs sc :: r => tree_run_a (snd (on_start t name n (pairs avs) sc)) r
  | OpEnd name :: r => tree_run_a (on_end t name) r
  end.
Fixpoint never_wraps_a (t : tree_state) (ops : list tagop) : Prop :=
  match ops with
  | [] => True
  | OpStart name n avs sc :: r => small (length (siblings t)) /\ never_wraps_a (snd (on_start t name n (pairs avs) sc)) r
  | OpEnd name :: r => never_wraps_a (on_end t name) r
  end.
Lemma never_wraps_a_app : forall ops1 t ops2, never_wraps_a t (ops1 ++ ops2) -> never_wraps_a t ops1 /\ never_wraps_a (tree_run_a t ops1) ops2.
Proof.
  induction ops1 as [|[name n avs sc|name] r IH]; intros t ops2 H; cbn [app never_wraps_a tree_run_a] in *; [auto| |apply IH; exact H].
  destruct H as [H1 H2]. destruct (IH _ _ H2) as [A B]. auto.
Qed.
Theorem run_keeps_inv prog root ext : forall ops c t c',
  Inv prog root c t -> never_wraps_a t ops -> vm_run c ext ops = Some c' -> Inv prog root c' (tree_run_a t ops).
Proof.
  induction ops as [|[name n avs sc|name] r IH]; intros c t c' Hi Hw Hrun; cbn [vm_run tree_run_a never_wraps_a] in *.
  - injection Hrun as <-. exact Hi.
  - destruct Hw as [Hs Hw]. destruct (vm_on_start c ext name n avs sc) as [c1|] eqn:E; [|discriminate].
    destruct (start_tag_step Hi Hs E) as [Hi1 _]. exact (IH _ _ _ Hi1 Hw Hrun).
  - destruct (rw_end_tag c name (hash_of name)) as [c1 f] eqn:E. cbn [fst] in Hrun.
    exact (IH _ _ _ (end_tag_step Hi E) Hw Hrun).
Qed.

(* the AST new_rwc builds (fold_ast): the selectors added in order, their ids counting from 0 *)
Definition build_step (acc : list ast_node * nat) (sel : selector) : list ast_node * nat := (add_selector (fst acc) sel (snd acc), S (snd acc)).
Definition build_ast (sels : list selector) : list ast_node := fst (fold_left build_step sels ([], 0)).
Lemma build_count sels : forall acc, snd (fold_left build_step sels acc) = snd acc + length sels.
Proof.
  induction sels as [|s sels IH]; intros acc; cbn [fold_left length]; [symmetry; apply Nat.add_0_r|].
  rewrite IH. apply Nat.add_succ_comm.
Qed.
Lemma build_ast_snoc sels sel : build_ast (sels ++ [sel]) = add_selector (build_ast sels) sel (length sels).
Proof. unfold build_ast. rewrite fold_left_app. cbn [fold_left build_step fst]. rewrite build_count. reflexivity. Qed.
Theorem build_ast_is_css sels x anc i : Forall (fun sel => sel_ok sel (rev anc ++ [x])) sels ->
  (In i (den_any (build_ast sels) (rev anc ++ [x])) <-> exists sel, nth_error sels i = Some sel /\ selector_matches sel x anc = true).
Proof.
  induction sels as [|sel sels IH] using rev_ind; intros Hok.
  - unfold build_ast, den_any. cbn [fold_left fst]. rewrite suffixes_nil. split; [intros [] | intros [sel [E _]]; destruct i; discriminate].
  - apply Forall_app in Hok. destruct Hok as [Hok Hsel].
    rewrite build_ast_snoc, (add_selector_is_css sel _ _ x anc i (Forall_inv Hsel)), (IH Hok), nth_error_snoc.
    destruct (Nat.eqb_spec i (length sels)) as [->|Hne].
    + split; [|intros [s [[= <-] Hm]]; right; auto]. intros [[s [E _]]|[_ Hm]]; [|exists sel; auto].
      rewrite (proj2 (nth_error_None sels _) (le_n _)) in E. discriminate.
    + split; [intros [H|[E _]]; [exact H | contradiction] | intros H; left; exact H].
Qed.

Corollary build_ast_of_handlers sels x anc i : Forall (fun sel => sel_ok sel (rev anc ++ [x])) (map sh_selector sels) ->
  (In i (den_any (build_ast (map sh_selector sels)) (rev anc ++ [x])) <->
   exists sh, nth_error sels i = Some sh /\ selector_matches (sh_selector sh) x anc = true).
Proof.
  intros Hok. rewrite (build_ast_is_css _ x anc i Hok). split.
  - intros [sel [E Hm]]. rewrite nth_error_map in E. destruct (nth_error sels i) as [sh|]; [|discriminate]. injection E as <-. exists sh. auto.
  - intros [sh [E Hm]]. exists (sh_selector sh). rewrite nth_error_map, E. auto.
Qed.

Lemma fold_ast : forall sels ast0 el0 cm0 tx0 locs0,
  fst (fst (fst (fst (fold_left sel_step sels (ast0, el0, cm0, tx0, locs0))))) = fst (fold_left build_step (map sh_selector sels) (ast0, length locs0)).
Proof.
  induction sels as [|sh sels IH]; intros ast0 el0 cm0 tx0 locs0; cbn [fold_left map]; [reflexivity|].
  unfold sel_step at 2.
  destruct (opt_push el0 _ false) as [el' li]. destruct (opt_push cm0 _ false) as [cm' lc]. destruct (opt_push tx0 _ false) as [tx' lt].
  rewrite IH, app_length, Nat.add_1_r. reflexivity.
Qed.
Theorem initial_state_inv sels docs bail fa isz mx : sels <> [] ->
  let root := build_ast (map sh_selector sels) in
  Inv (compile root) root (new_rwc sels docs bail fa isz mx) (mkTree [] []).
Proof.
  intros Hne root. unfold new_rwc. fold sel_step.
  pose proof (fold_ast sels [] [] [] [] []) as Ha. cbn [length] in Ha. fold (build_ast (map sh_selector sels)) in Ha. fold root in Ha.
  destruct (fold_left sel_step sels _) as [[[[ast el] cm] tx] locs]. cbn [fst] in Ha. subst ast.
  destruct (fold_left _ docs _) as [[[dt cm2] tx2] en].
  destruct sels as [|sh sels']; [contradiction|].
  constructor; cbn [r_prog r_stack].
  - reflexivity.
  - apply compile_represents_ast.
  - apply new_vstack_full.
  - exact I.
  - reflexivity.
Qed.

(* selectors -> AST -> program -> VM = CSS matching over the induced tree.  c' comes from finish_exec c1 ext ec', which hands
   ed_matched of ec' to start_matching: the conclusion says what that list holds *)
Theorem selector_vm_is_css sels docs bail fa isz mx ext ops c name n avs sc c' :
  sels <> [] ->
  never_wraps_a (mkTree [] []) (ops ++ [OpStart name n avs sc]) ->
  vm_run (new_rwc sels docs bail fa isz mx) ext ops = Some c -> vm_on_start c ext name n avs sc = Some c' ->
  let t := tree_run_a (mkTree [] []) ops in
  let el := fst (on_start t name n (pairs avs) sc) in
  let anc := map o_el (t_open t) in
  Forall (fun sel => sel_ok sel (rev anc ++ [el])) (map sh_selector sels) ->
  exists c1 ec' f, finish_exec c1 ext ec' = (c', FOk f) /\ r_locators c1 = r_locators c /\ ec_with_content ec' = stays_open name n sc /\
    forall i, In i (ed_matched (si_data (ec_item ec'))) <->
              exists sh, nth_error sels i = Some sh /\ selector_matches (sh_selector sh) el anc = true.
Proof.
  intros Hne Hw Hrun Hst t el anc Hok. apply never_wraps_a_app in Hw. destruct Hw as [Hw [Hs _]].
  pose proof (run_keeps_inv _ _ _ _ _ _ _ (initial_state_inv sels docs bail fa isz mx Hne) Hw Hrun) as Hi.
  destruct (start_tag_step Hi Hs Hst) as [_ [c1 [ec' [f [A [B [C D]]]]]]].
  exists c1, ec', f. refine (conj A (conj B (conj C _))). intros i. rewrite D.
  change (chain_of (tree_run_a (mkTree [] []) ops)) with (rev anc). fold t. fold el.
  exact (build_ast_of_handlers sels el anc i Hok).
Qed.
