(* C04: the :nth-of-type counters (TypedChildCounterMap).  For every sequence of tags the counter the VM reads for an
   element is its 1-based position among the siblings of the same name in the tag-induced tree. *)
From LolModel Require Import Rewriter.
From LolSpec Require Import CssSem.
From LolProofs Require Import Css StackTree.
From Coq Require Import Lia.
Import ListNotations.
Open Scope nat_scope.

(* a counter list's entries, oldest (shallowest) first *)
Definition entries (cl : counter_list) : list (Z * nat) := cl_items cl ++ [cl_cur cl].
Lemma entries_not_nil cl : entries cl <> [].
Proof. unfold entries. destruct (cl_items cl); discriminate. Qed.

(* the specification side, lv n 0 (level_kids t): per level of the open-element chain, root first, how many children are
   called n, with the level's depth; a level without such a child has no entry *)
Definition level_kids (t : tree_state) : list (list bytes) := t_root_children t :: rev (map o_children (t_open t)).
Fixpoint lv (n : bytes) (d : nat) (ks : list (list bytes)) : list (Z * nat) :=
  match ks with
  | [] => []
  | k :: r => (if count_same n k =? 0 then [] else [(Z.of_nat (count_same n k), d)]) ++ lv n (S d) r
  end.
Definition levels (t : tree_state) (n : bytes) : list (Z * nat) := lv n 0 (level_kids t).

Lemma lv_app n a : forall d b, lv n d (a ++ b) = lv n d a ++ lv n (d + length a) b.
Proof.
  induction a as [|k r IH]; intros d b; cbn [app lv length]; [rewrite Nat.add_0_r; reflexivity|].
  rewrite IH, <- app_assoc. replace (S d + length r) with (d + S (length r)) by lia. reflexivity.
Qed.
Lemma lv_depths n ks : forall d e, In e (lv n d ks) -> d <= snd e < d + length ks.
Proof.
  induction ks as [|k r IH]; intros d e H; cbn [lv] in H; [destruct H|].
  apply in_app_iff in H. destruct H as [H|H].
  - destruct (count_same n k =? 0); [destruct H|]. destruct H as [<-|[]]. cbn. lia.
  - specialize (IH (S d) e H). cbn [length]. lia.
Qed.
Lemma cur_depth n cl ks : entries cl = lv n 0 ks -> snd (cl_cur cl) < length ks.
Proof. intros He. apply (lv_depths n ks 0). rewrite <- He. apply in_or_app. right. left. reflexivity. Qed.
Lemma lv_last n pre last : lv n 0 (pre ++ [last]) = lv n 0 pre ++ (if count_same n last =? 0 then [] else [(Z.of_nat (count_same n last), length pre)]).
Proof. rewrite lv_app. cbn [lv Nat.add]. rewrite app_nil_r. reflexivity. Qed.

Lemma lv_firstn_nil {n j ks} : [] = lv n 0 ks -> [] = lv n 0 (firstn j ks).
Proof. intros H. rewrite <- (firstn_skipn j ks), lv_app in H. symmetry. exact (proj1 (app_eq_nil _ _ (eq_sym H))). Qed.

Lemma cl_pop_to_lv n i : forall ks fuel cl, length (cl_items cl) < fuel -> entries cl = lv n 0 ks ->
  match cl_pop_to fuel cl i with Some cl' => entries cl' | None => [] end = lv n 0 (firstn (S i) ks).
Proof.
  induction ks as [|k ks IH] using rev_ind; intros fuel cl Hf He; [destruct (entries_not_nil cl He)|].
  destruct (Nat.le_gt_cases (length ks) i) as [Hle|Hgt].
  - (* no level is deeper than i, so the current entry is not *)
    rewrite firstn_all2 by (rewrite app_length; cbn; lia). rewrite <- He.
    pose proof (cur_depth n cl _ He) as Hd.
    rewrite app_length in Hd. cbn in Hd. destruct fuel as [|f]; [lia|]. cbn [cl_pop_to].
    replace (i <? snd (cl_cur cl)) with false by (symmetry; apply Nat.ltb_ge; lia). reflexivity.
  - (* the last level is: its entry, if any, is the current one, and is dropped *)
    rewrite firstn_app. replace (S i - length ks) with 0 by lia. rewrite firstn_O, app_nil_r.
    rewrite lv_last in He. destruct (count_same n k =? 0); [rewrite app_nil_r in He; exact (IH fuel cl Hf He)|].
    apply app_inj_tail in He. destruct He as [Hi Hc]. destruct fuel as [|f]; [lia|]. cbn [cl_pop_to]. rewrite Hc. cbn [snd].
    replace (i <? length ks) with true by (symmetry; apply Nat.ltb_lt; exact Hgt).
    destruct (cl_items cl) as [|x l _] using rev_ind.
    + cbn [rev]. exact (lv_firstn_nil Hi).
    + rewrite rev_app_distr. cbn [rev app]. rewrite rev_involutive. rewrite app_length in Hf. cbn in Hf.
      exact (IH f (mkCL l x) ltac:(cbn; lia) Hi).
Qed.

Lemma name_eq_iff a : forall b, name_eq a b = true <-> map lower a = map lower b.
Proof.
  unfold name_eq. induction a as [|x a IH]; intros [|y b]; cbn; try (split; (reflexivity || discriminate)).
  rewrite andb_true_iff, N.eqb_eq, IH. split; [intros [-> ->]; reflexivity | intros E; injection E; auto].
Qed.
Lemma name_eq_refl a : name_eq a a = true.
Proof. apply name_eq_iff. reflexivity. Qed.
Lemma name_eq_sym a b : name_eq a b = name_eq b a.
Proof. apply Bool.eq_true_iff_eq. rewrite !name_eq_iff. split; intros E; symmetry; exact E. Qed.
Lemma name_eq_congr a b x : name_eq a b = true -> name_eq a x = name_eq b x.
Proof. intros H. apply name_eq_iff in H. apply Bool.eq_true_iff_eq. rewrite !name_eq_iff, H. reflexivity. Qed.
Lemma count_same_congr a b l : name_eq a b = true -> count_same a l = count_same b l.
Proof. intros H. unfold count_same. f_equal. induction l as [|x l IH]; [reflexivity|]. cbn. rewrite (name_eq_congr a b x H), IH. reflexivity. Qed.
Lemma lv_congr a b ks : name_eq a b = true -> forall d, lv a d ks = lv b d ks.
Proof. intros H. induction ks as [|k r IH]; intros d; cbn [lv]; [reflexivity|]. rewrite (count_same_congr a b k H), IH. reflexivity. Qed.
Lemma count_same_snoc n l x : count_same n (l ++ [x]) = count_same n l + (if name_eq n x then 1 else 0).
Proof. unfold count_same. rewrite filter_app, app_length. cbn. destruct (name_eq n x); reflexivity. Qed.

(* what typed_add does to the counter list under the key that matches *)
Definition cl_add (cl : counter_list) (D : nat) : counter_list :=
  if snd cl.(cl_cur) =? D then mkCL cl.(cl_items) (inc32 (fst cl.(cl_cur)), D) else mkCL (cl.(cl_items) ++ [cl.(cl_cur)]) (1%Z, D).

Lemma lv_add_same name pre last :
  lv name 0 (pre ++ [last ++ [name]]) = lv name 0 pre ++ [(Z.of_nat (S (count_same name last)), length pre)].
Proof. rewrite lv_last, count_same_snoc, name_eq_refl, Nat.add_1_r. reflexivity. Qed.
Lemma lv_add_other n name pre last : name_eq n name = false -> lv n 0 (pre ++ [last ++ [name]]) = lv n 0 (pre ++ [last]).
Proof. intros Hn. rewrite !lv_last, count_same_snoc, Hn, Nat.add_0_r. reflexivity. Qed.

Lemma entries_add name pre last cl : small (count_same name last) ->
  entries cl = lv name 0 (pre ++ [last]) -> entries (cl_add cl (length pre)) = lv name 0 (pre ++ [last ++ [name]]).
Proof.
  intros Hs He. rewrite lv_last in He. rewrite lv_add_same. unfold cl_add.
  destruct (Nat.eqb_spec (count_same name last) 0) as [Hz|Hnz].
  - (* first child of that name at this depth *)
    rewrite app_nil_r in He. rewrite Hz. pose proof (cur_depth name cl pre He) as Hd.
    replace (snd (cl_cur cl) =? length pre) with false by (symmetry; apply Nat.eqb_neq; lia).
    unfold entries in *. cbn [cl_items cl_cur]. rewrite He. reflexivity.
  - unfold entries in *. apply app_inj_tail in He. destruct He as [Hi Hc]. rewrite Hc. cbn [snd fst]. rewrite Nat.eqb_refl. cbn [cl_items cl_cur].
    rewrite Hi, inc32_small by exact Hs. reflexivity.
Qed.
Lemma entries_new name pre last : lv name 0 (pre ++ [last]) = [] -> [(1%Z, length pre)] = lv name 0 (pre ++ [last ++ [name]]).
Proof.
  rewrite lv_last, lv_add_same. intros He. apply app_eq_nil in He. destruct He as [-> H2].
  destruct (Nat.eqb_spec (count_same name last) 0) as [->|_]; [reflexivity | discriminate].
Qed.

Definition K (n : bytes) : lname := lname_of_str n.
Lemma K_eqb a b : lname_eqb (K a) (K b) = name_eq a b.
Proof. apply local_name_eq_is_case_insensitive_name_eq. Qed.

Lemma lname_eqb_sym a b : lname_eqb a b = lname_eqb b a.
Proof. destruct a, b; cbn; try reflexivity; [apply N.eqb_sym | apply name_eq_sym]. Qed.
Lemma lname_eqb_congr a b x : lname_eqb a b = true -> lname_eqb x a = lname_eqb x b.
Proof.
  rewrite !(lname_eqb_sym x). destruct a, b, x; cbn; intros H; try discriminate; try reflexivity.
  - apply N.eqb_eq in H. subst. reflexivity.
  - exact (name_eq_congr _ _ _ H).
Qed.

Fixpoint nodup_keys (m : list (lname * counter_list)) : Prop :=
  match m with [] => True | e :: r => (forall e', In e' r -> lname_eqb (fst e') (fst e) = false) /\ nodup_keys r end.
Record Minv (m : list (lname * counter_list)) (ks : list (list bytes)) : Prop := {
  mi_entries : forall k cl, In (k, cl) m -> exists n0, k = K n0 /\ entries cl = lv n0 0 ks /\ lv n0 0 ks <> [];
  mi_nodup : nodup_keys m;
  mi_complete : forall n, lv n 0 ks <> [] -> exists k cl, In (k, cl) m /\ lname_eqb k (K n) = true
}.

Lemma find_in m q k cl : nodup_keys m -> In (k, cl) m -> lname_eqb k q = true -> find (fun e => lname_eqb (fst e) q) m = Some (k, cl).
Proof.
  intros Hnd Hin Hq. induction m as [|e r IH]; [destruct Hin|]. cbn [find]. destruct Hnd as [Hd Hr]. destruct Hin as [->|Hin].
  - cbn [fst]. rewrite Hq. reflexivity.
  - rewrite <- (lname_eqb_congr k q (fst e) Hq), lname_eqb_sym, (Hd (k, cl) Hin : lname_eqb k (fst e) = false). exact (IH Hr Hin).
Qed.

Definition look (m : list (lname * counter_list)) (q : lname) : option (lname * counter_list) := find (fun e => lname_eqb (fst e) q) m.
(* the entries under a key; [] when there is none: a counter list always has its current entry *)
Definition ent (m : list (lname * counter_list)) (q : lname) : list (Z * nat) :=
  match look m q with Some e => entries (snd e) | None => [] end.

(* the proofs below use Minv in this form only *)
Lemma Minv_by_key m ks : Minv m ks <->
  nodup_keys m /\ (forall e, In e m -> exists n0, fst e = K n0) /\ forall n, ent m (K n) = lv n 0 ks.
Proof.
  unfold ent, look. split.
  - intros [H1 H2 H3]. split; [exact H2|]. split.
    + intros [k cl] Hin. destruct (H1 k cl Hin) as [n0 [-> _]]. exists n0. reflexivity.
    + intros n. destruct (find _ m) as [[k cl]|] eqn:Ef.
      * apply find_some in Ef. destruct Ef as [Hin Hk]. cbn [fst] in Hk. destruct (H1 k cl Hin) as [n0 [-> [He _]]].
        rewrite K_eqb in Hk. cbn [snd]. rewrite He. exact (lv_congr n0 n ks Hk 0).
      * destruct (lv n 0 ks) eqn:E; [reflexivity|]. destruct (H3 n ltac:(rewrite E; discriminate)) as [k [cl [Hin Hk]]].
        pose proof (find_none _ _ Ef _ Hin) as Hf. cbn [fst] in Hf. rewrite Hk in Hf. discriminate.
  - intros [H2 [HK He]]. constructor; [|exact H2|].
    + intros k cl Hin. destruct (HK (k, cl) Hin) as [n0 E]. cbn [fst] in E. subst k. exists n0. split; [reflexivity|].
      rewrite <- (He n0), (find_in m (K n0) (K n0) cl H2 Hin) by (rewrite K_eqb; apply name_eq_refl).
      cbn [snd]. split; [reflexivity | apply entries_not_nil].
    + intros n Hn. rewrite <- (He n) in Hn. destruct (find _ m) as [[k cl]|] eqn:Ef; [|contradiction Hn; reflexivity].
      apply find_some in Ef. exists k, cl. exact Ef.
Qed.

Lemma Minv_push m ks : Minv m ks -> Minv m (ks ++ [[]]).
Proof.
  intros [H2 [HK He]]%Minv_by_key. apply Minv_by_key. split; [exact H2|]. split; [exact HK|].
  intros n. rewrite He, lv_last. symmetry. apply app_nil_r.
Qed.

Lemma keys_pop (P : lname -> Prop) m i : (forall e, In e m -> P (fst e)) -> forall e, In e (typed_pop_to m i) -> P (fst e).
Proof.
  intros HP e' H. apply in_flat_map in H. destruct H as [e [Hm Hx]].
  destruct (cl_pop_to _ _ i); [|destruct Hx]. destruct Hx as [<-|[]]. exact (HP e Hm).
Qed.
Lemma nodup_pop m i : nodup_keys m -> nodup_keys (typed_pop_to m i).
Proof.
  induction m as [|[k cl] r IH]; [auto|]. intros [Hd Hr]. unfold typed_pop_to. cbn [flat_map fst snd].
  destruct (cl_pop_to _ cl i) as [c|]; cbn [app]; [|exact (IH Hr)]. exact (conj (keys_pop (fun k' => lname_eqb k' k = false) r i Hd) (IH Hr)).
Qed.
Lemma find_none (m : list (lname * counter_list)) q : (forall k cl, In (k, cl) m -> lname_eqb k q = false) -> find (fun e => lname_eqb (fst e) q) m = None.
Proof.
  intros H. induction m as [|[k cl] r IH]; [reflexivity|]. cbn [find fst]. rewrite (H k cl (or_introl eq_refl)).
  apply IH. intros k0 cl0 H0. apply (H k0 cl0). right. exact H0.
Qed.
Lemma ent_pop m i q : nodup_keys m -> ent (typed_pop_to m i) q =
  match look m q with
  | Some e => match cl_pop_to (S (length (cl_items (snd e)))) (snd e) i with Some c => entries c | None => [] end
  | None => []
  end.
Proof.
  unfold ent, look, typed_pop_to. induction m as [|[k cl] r IH]; intros Hnd; [reflexivity|]. destruct Hnd as [Hd Hr].
  cbn [flat_map find fst snd]. destruct (lname_eqb k q) eqn:Ekq; cbn [snd].
  - assert (Hno : find (fun e => lname_eqb (fst e) q) r = None).
    { apply find_none. intros k0 cl0 Hin. rewrite <- (lname_eqb_congr k q k0 Ekq). exact (Hd (k0, cl0) Hin). }
    destruct (cl_pop_to _ cl i) as [c|]; cbn [app find fst]; [rewrite Ekq; reflexivity | rewrite (IH Hr), Hno; reflexivity].
  - destruct (cl_pop_to _ cl i) as [c|]; cbn [app find fst]; [rewrite Ekq|]; exact (IH Hr).
Qed.
Lemma Minv_pop m ks i : Minv m ks -> Minv (typed_pop_to m i) (firstn (S i) ks).
Proof.
  intros [H2 [HK He]]%Minv_by_key. apply Minv_by_key. split; [exact (nodup_pop m i H2)|].
  split; [exact (keys_pop (fun k => exists n0, k = K n0) m i HK)|].
  intros n. rewrite (ent_pop m i (K n) H2). specialize (He n). unfold ent in He. destruct (look m (K n)) as [e|].
  - exact (cl_pop_to_lv n i ks _ (snd e) (le_n _) He).
  - exact (lv_firstn_nil He).
Qed.

Lemma ent_add m q D q' : ent (typed_add m q D) q' =
  if lname_eqb q q' then match look m q with Some e => entries (cl_add (snd e) D) | None => [(1%Z, D)] end else ent m q'.
Proof.
  unfold ent, look. induction m as [|[k cl] r IH]; cbn [typed_add find fst snd]; [destruct (lname_eqb q q'); reflexivity|].
  fold (cl_add cl D). destruct (lname_eqb k q) eqn:Ekq; cbn [find fst snd].
  - rewrite (lname_eqb_sym k q'), (lname_eqb_congr k q q' Ekq), (lname_eqb_sym q' q). destruct (lname_eqb q q'); reflexivity.
  - destruct (lname_eqb k q') eqn:Ekq'; [|exact IH]. destruct (lname_eqb q q') eqn:Eqq; [|reflexivity].
    rewrite (lname_eqb_sym q q') in Eqq. rewrite (lname_eqb_congr q' q k Eqq), Ekq in Ekq'. discriminate.
Qed.
Lemma keys_add (P : lname -> Prop) m q D : (forall e, In e m -> P (fst e)) -> P q -> forall e, In e (typed_add m q D) -> P (fst e).
Proof.
  intros HP Hq. induction m as [|[k0 cl] r IH]; cbn [typed_add]; [intros e [<-|[]]; exact Hq|].
  pose proof (HP _ (or_introl eq_refl)) as H0. destruct (lname_eqb k0 q); intros e [<-|H];
    [exact H0 | exact (HP e (or_intror H)) | exact H0 | exact (IH (fun e0 H1 => HP e0 (or_intror H1)) e H)].
Qed.
Lemma nodup_add m q D : nodup_keys m -> nodup_keys (typed_add m q D).
Proof.
  induction m as [|[k cl] r IH]; cbn [typed_add nodup_keys]; [intros _; split; [intros ? []|exact I]|]. intros [Hd Hr].
  destruct (lname_eqb k q) eqn:Ekq; cbn [nodup_keys]; [split; [exact Hd | exact Hr]|]. split; [|exact (IH Hr)].
  apply (keys_add (fun k' => lname_eqb k' k = false) r q D Hd). rewrite lname_eqb_sym. exact Ekq.
Qed.

Lemma Minv_add m pre last name : Minv m (pre ++ [last]) -> small (count_same name last) ->
  Minv (typed_add m (K name) (length pre)) (pre ++ [last ++ [name]]).
Proof.
  intros [H2 [HK He]]%Minv_by_key Hs. apply Minv_by_key. split; [exact (nodup_add m _ _ H2)|]. split.
  - apply (keys_add (fun k => exists n0, k = K n0) m _ _ HK). exists name. reflexivity.
  - intros n. rewrite ent_add, K_eqb. destruct (name_eq name n) eqn:En.
    + rewrite <- (lv_congr name n _ En 0). specialize (He name). unfold ent in He. destruct (look m (K name)) as [e|].
      * exact (entries_add name pre last (snd e) Hs He).
      * exact (entries_new name pre last (eq_sym He)).
    + rewrite He. symmetry. apply lv_add_other. rewrite name_eq_sym. exact En.
Qed.

Lemma typed_get_after_add m pre last name : Minv m (pre ++ [last ++ [name]]) ->
  typed_get m (K name) (length pre) = Some (Z.of_nat (S (count_same name last))).
Proof.
  intros [_ [_ He]]%Minv_by_key. specialize (He name).
  rewrite lv_add_same in He. unfold typed_get. unfold ent, look in He. destruct (find _ m) as [[k cl]|]; [|destruct (lv name 0 pre); discriminate].
  cbn [snd] in He. apply app_inj_tail in He. destruct He as [_ ->]. cbn [snd fst]. rewrite Nat.eqb_refl. reflexivity.
Qed.

Lemma filter_len_le {A} (f : A -> bool) l : length (filter f l) <= length l.
Proof. induction l as [|x l IH]; [apply le_n|]. cbn. destruct (f x); cbn; lia. Qed.

Definition Rfull (s : vstack) (t : tree_state) : Prop :=
  shape s = tshape t /\ match vs_typed s with Some m => Minv m (level_kids t) | None => True end.

Lemma level_kids_split t : exists pre, level_kids t = pre ++ [siblings t] /\ length pre = length (t_open t) /\
  forall name, level_kids (add_child_tree t name) = pre ++ [siblings t ++ [name]].
Proof.
  unfold level_kids, siblings, add_child_tree. destruct (t_open t) as [|o r].
  - exists []. cbn. auto.
  - exists (t_root_children t :: rev (map o_children r)). cbn [map rev t_open t_root_children o_children length].
    rewrite rev_length, map_length. split; [reflexivity|]. split; [reflexivity|]. intros name. reflexivity.
Qed.
Lemma typed_of_add_child s ln : vs_typed (stack_add_child s ln) = option_map (fun m => typed_add m ln (length (vs_items s))) (vs_typed s).
Proof. rewrite stack_add_child_eq. reflexivity. Qed.

(* the two sibling indices the VM reads for the element of a start tag *)
Definition indices_ok (s : vstack) (t : tree_state) (name : bytes) : Prop :=
  let s1 := stack_add_child s (K name) in let el := fst (on_start t name Html [] false) in
  ss_cumulative (build_state s1 (K name)) = e_index el /\ (vs_typed s <> None -> ss_typed (build_state s1 (K name)) = Some (e_type_index el)).

Lemma Rfull_add_child s t name : Rfull s t -> small (length (siblings t)) -> Rfull (stack_add_child s (K name)) (add_child_tree t name).
Proof.
  intros [Hsh Ht] Hs. split; [exact (shape_add_child s t (K name) name Hsh Hs)|].
  rewrite typed_of_add_child. destruct (vs_typed s) as [m|]; cbn [option_map]; [|exact I].
  destruct (level_kids_split t) as [pre [Elk [Elen Eadd]]]. rewrite Eadd, (shape_length s t Hsh), <- Elen. rewrite Elk in Ht.
  apply Minv_add; [exact Ht|].
  unfold small in *. unfold count_same. pose proof (filter_len_le (name_eq name) (siblings t)). lia.
Qed.
Lemma typed_read s t name last : Rfull s t -> siblings t = last ++ [name] -> vs_typed s <> None ->
  ss_typed (build_state s (K name)) = Some (Z.of_nat (S (count_same name last))).
Proof.
  intros [Hsh Ht] Es Hty. unfold build_state. cbn [ss_typed]. destruct (vs_typed s) as [m|]; [|contradiction].
  destruct (level_kids_split t) as [pre [Elk [Elen _]]]. rewrite Elk, Es in Ht.
  rewrite (shape_length s t Hsh), <- Elen. exact (typed_get_after_add m pre last name Ht).
Qed.
Lemma indices_after_add_child s t name : Rfull s t -> small (length (siblings t)) -> indices_ok s t name.
Proof.
  intros Hf Hs. split; [exact (nth_child_index_is_the_sibling_position s t name Html [] false (proj1 Hf) Hs)|].
  intros Hty. apply (typed_read _ (add_child_tree t name) name (siblings t) (Rfull_add_child s t name Hf Hs)).
  - apply siblings_add_child.
  - rewrite typed_of_add_child. destruct (vs_typed s); [discriminate | exact Hty].
Qed.

Lemma full_push s t it name el isz mi other mx s' ch :
  Rfull s t -> si_name it = K name -> si_children it = 0%Z -> e_name el = name ->
  stack_push s it isz mi other mx = (s', ch, true) ->
  Rfull s' (mkTree (mkOpen el [] :: t_open t) (t_root_children t)).
Proof.
  intros [Hsh Ht] Hn Hc He Hp. split; [exact (shape_push s t it name el isz mi other mx s' ch Hsh Hn Hc He Hp)|].
  destruct (stack_push_true Hp) as [_ [-> _]]. destruct (vs_typed s) as [m|]; [|exact I].
  change (level_kids (mkTree (mkOpen el [] :: t_open t) (t_root_children t))) with (level_kids t ++ [[]]). apply Minv_push. exact Ht.
Qed.

Lemma full_pop s t name : Rfull s t -> Rfull (fst (stack_pop_up_to s (K name))) (on_end t name).
Proof.
  intros [Hsh Ht]. split; [exact (shape_pop s t name Hsh)|].
  destruct (pop_spec s t name Hsh) as [[pre E] Hpop]. unfold K. rewrite Hpop. cbn [fst]. unfold on_end in *.
  destruct (close_to name (t_open t)) as [rest|]; [|exact Ht]. cbn [t_open vs_typed] in *.
  destruct (vs_typed s) as [m|]; cbn [option_map]; [|exact I].
  replace (level_kids (mkTree rest (t_root_children t))) with (firstn (S (length rest)) (level_kids t)); [apply Minv_pop; exact Ht|].
  unfold level_kids. cbn [t_open t_root_children firstn]. f_equal. rewrite E. apply firstn_rev_map_app.
Qed.

Theorem start_tag_keeps_stack_and_counters c ext name n attrs sc c' t :
  r_prog c <> None -> Rfull (r_stack c) t -> small (length (siblings t)) ->
  vm_on_start c ext name n attrs sc = Some c' ->
  Rfull (r_stack c') (after_start t name n sc) /\ r_prog c' <> None /\ indices_ok (r_stack c) t name.
Proof.
  intros Hp Hf Hsm Hrun. destruct (start_tag_keeps Rfull Rfull_add_child full_push [] Hp Hf Hsm Hrun) as [A B].
  exact (conj A (conj B (indices_after_add_child _ t name Hf Hsm))).
Qed.

Theorem vm_stack_and_counters_follow_the_tree ops : forall c ext t c',
  r_prog c <> None -> Rfull (r_stack c) t -> never_wraps t ops -> vm_run c ext ops = Some c' -> Rfull (r_stack c') (tree_run t ops).
Proof. exact (vm_run_keeps Rfull Rfull_add_child full_push full_pop ops). Qed.
Lemma new_vstack_full b : Rfull (new_vstack b) (mkTree [] []).
Proof.
  split; [reflexivity|]. unfold new_vstack. destruct b; cbn [vs_typed]; [|exact I].
  apply Minv_by_key. split; [exact I|]. split; [intros e [] | reflexivity].
Qed.
