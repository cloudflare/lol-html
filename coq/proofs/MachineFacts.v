(* Equations and facts about Machine.v that several proofs share. *)
From LolModel Require Import Machine.

Section MachineFacts.
Context {C : Type} (ctl : controller C).
Notation ctx := (@ctx C).
Notation rewriter := (@rewriter C).

Section Chunk.
Variable input : bytes.
Variable base : nat.

(* one round of run_loop: the state's entry actions, one iteration of its body, and what a break does *)
Definition enter_state (m : mach) (c : ctx) : act_res :=
  if m_entered (mode_of m) then AOk m c else
  match sd_enter (table (m_st (mode_of m))) with
  | [] => AOk (set_state m (m_st (mode_of m)) true) c
  | acts => match do_actions ctl input base acts (set_pos m (S (next_pos m))) c with
            | AOk x c' => AOk (set_state (set_pos x (next_pos x - 1)) (m_st (mode_of x)) true) c'
            | y => y end
  end.
Definition end_of_chunk (m2 : mach) (c2 : ctx) : loop_res :=
  let consumed := consumed_count input m2 in
  let m3 := if is_last m2 then m2 else adjust_for_next_input m2 in
  if consumed <=? pos m3 then LEnd (set_pos m3 (pos m3 - consumed)) c2 consumed else LPanic 5 c2.
Lemma run_loop_S f m c :
  run_loop ctl input base (S f) m c =
  match enter_state m c with
  | APanic k c' => LPanic k c' | AErr e c' => LErr e c' | ASwitch d b m' c' => LSwitch d b m' c'
  | AOk m1 c1 =>
      match body_iter ctl input base (table (m_st (mode_of m))) m1 c1 with
      | BContinue m2 c2 => run_loop ctl input base f m2 c2
      | BBreak m2 c2 => end_of_chunk m2 c2
      | BSwitch d b m2 c2 => LSwitch d b m2 c2 | BErr e c2 => LErr e c2 | BPanic k c2 => LPanic k c2
      end
  end.
Proof. reflexivity. Qed.

(* what an arm's outcome becomes in the loop body, by the pattern that matched *)
Definition arm_body (p : pat) (m : mach) (c : ctx) (o : arm_out) : body_out :=
  match p with
  | P_eoc =>
      match o with Continue m' c' | Return m' c' => BBreak m' c'
      | Switch d b m' c' => BSwitch d b m' c' | ArmErr e c' => BErr e c' | ArmPanic k c' => BPanic k c' end
  | P_eof =>
      if is_last m then
        match o with Continue m' c' => BBreak m' c' | Return m' c' => BContinue m' c'
        | Switch d b m' c' => BSwitch d b m' c' | ArmErr e c' => BErr e c' | ArmPanic k c' => BPanic k c' end
      else BBreak m c
  | _ => of_arm o
  end.
Lemma try_arms_cons p al r ch m c :
  try_arms ctl input base ((p, al) :: r) ch m c =
  if pat_matches p ch m then arm_body p m c (run_alist ctl input base al m c) else try_arms ctl input base r ch m c.
Proof. destruct p; reflexivity. Qed.
End Chunk.

Lemma bail_err s d e fl : snd (bail ctl s d e fl) = CErr e.
Proof. unfold bail. destruct (should_bail_out_for s e); reflexivity. Qed.
Lemma bail_not_ok s d e fl s' : bail ctl s d e fl <> (s', COk).
Proof. intro Q. pose proof (bail_err s d e fl) as H. rewrite Q in H. discriminate H. Qed.

Section SinkFrame.
Context {X : Type} (f : @disp C -> X).
Hypothesis f_sink : forall d k, f (d_with_sink d k) = f d.
Lemma push_nonempty_frame d b : f (sink_push_nonempty d b) = f d.
Proof. destruct b; [reflexivity | apply f_sink]. Qed.
Lemma pieces_frame ps : forall d, f (sink_pieces d ps) = f d.
Proof. unfold sink_pieces. induction ps as [|p ps IH]; intro d; cbn; [reflexivity|]. rewrite IH. apply push_nonempty_frame. Qed.
End SinkFrame.
Lemma flush_remaining_ctl (d : @disp C) ch n : d_ctl (flush_remaining_input d ch n) = d_ctl d.
Proof.
  unfold flush_remaining_input. destruct (d_emission d); [|reflexivity].
  exact (push_nonempty_frame d_ctl (fun _ _ => eq_refl) d _).
Qed.

Lemma api_run_app ops1 : forall ops2 (r0 : rewriter),
  api_run ctl r0 (ops1 ++ ops2) =
  let (r1, x1) := api_run ctl r0 ops1 in let (r2, x2) := api_run ctl r1 ops2 in (r2, x1 ++ x2).
Proof.
  induction ops1 as [|o ops1 IH]; intros ops2 r0; cbn.
  - destruct (api_run ctl r0 ops2); reflexivity.
  - destruct (api_step ctl r0 o) as [r1 x]. rewrite IH. destruct (api_run ctl r1 ops1) as [r2 xs]. destruct (api_run ctl r2 ops2). reflexivity.
Qed.

(* whatever the calls, in whatever order: Q holds of every result if the two answers of a dead rewriter have it and write
   and finish, on a stream with P, fail with it; P is asked of a live rewriter's stream only, and successful writes keep it *)
Theorem api_run_Q (P : @stream C -> Prop) (Q : api_res -> Prop) :
  Q ROk -> Q RPanicPoisoned -> Q RUseAfterEnd ->
  (forall s data, P s ->
     match write ctl s data with (s', COk) => P s' | (_, CErr e) => Q (RErr e) | (_, CPanic k) => Q (RPanic k) end) ->
  (forall s, P s -> match snd (finish ctl s) with COk => True | CErr e => Q (RErr e) | CPanic k => Q (RPanic k) end) ->
  forall ops (r0 r : rewriter) res,
  (rw_ended r0 = false -> rw_poisoned r0 = false -> P (rw_stream r0)) -> api_run ctl r0 ops = (r, res) -> Forall Q res.
Proof.
  intros Qok Qpo Qend Hw Hf.
  assert (Hs : forall (r0 : rewriter) o, (rw_ended r0 = false -> rw_poisoned r0 = false -> P (rw_stream r0)) ->
    let (r1, x) := api_step ctl r0 o in Q x /\ (rw_ended r1 = false -> rw_poisoned r1 = false -> P (rw_stream r1))).
  { intros r0 o HP. unfold api_step. destruct (rw_ended r0) eqn:Ee; [split; [exact Qend | congruence]|].
    destruct (rw_poisoned r0); [split; [exact Qpo | discriminate]|]. specialize (HP eq_refl eq_refl).
    destruct o as [data|].
    - specialize (Hw _ data HP). destruct (write ctl (rw_stream r0) data) as [s' [| |]]; split; (exact Hw || discriminate || auto).
    - specialize (Hf _ HP). destruct (finish ctl (rw_stream r0)) as [s' [| |]]; split; (exact Hf || discriminate || auto). }
  induction ops as [|o ops IH]; intros r0 r res HP; cbn; [intros [= _ <-]; constructor|].
  specialize (Hs r0 o HP). destruct (api_step ctl r0 o) as [r1 x]. destruct (api_run ctl r1 ops) as [r2 xs] eqn:Er.
  intros [= _ <-]. constructor; [apply Hs | exact (IH r1 r2 xs (proj2 Hs) Er)].
Qed.

(* a sequence of successful writes, with the bytes written so far *)
Theorem writes_run (P : @stream C -> bytes -> Prop) :
  (forall s R data s', P s R -> write ctl s data = (s', COk) -> P s' (R ++ data)) ->
  forall chunks (r0 : rewriter) R r res,
  P (rw_stream r0) R -> rw_poisoned r0 = false -> rw_ended r0 = false ->
  api_run ctl r0 (map Write chunks) = (r, res) -> Forall (fun x => x = ROk) res ->
  P (rw_stream r) (R ++ List.concat chunks) /\ rw_poisoned r = false /\ rw_ended r = false.
Proof.
  intros Hw. induction chunks as [|ch chs IH]; intros r0 R r res HP Hp He; cbn.
  - intros [= <- <-] _. rewrite app_nil_r. auto.
  - unfold api_step. rewrite He, Hp. specialize (Hw (rw_stream r0) R ch).
    destruct (write ctl (rw_stream r0) ch) as [s' cr].
    destruct cr; cbn; destruct (api_run ctl _ (map Write chs)) as [r2 xs] eqn:Er; intros [= <- <-] Hall; try discriminate (Forall_inv Hall).
    rewrite app_assoc. exact (IH (mkRw s' false false) _ _ _ (Hw s' HP eq_refl) eq_refl eq_refl Er (Forall_inv_tail Hall)).
Qed.

Corollary successful_writes_preserve (P : @stream C -> Prop) :
  (forall s data s', P s -> write ctl s data = (s', COk) -> P s') ->
  forall chunks (r0 : rewriter), P (rw_stream r0) -> rw_poisoned r0 = false -> rw_ended r0 = false ->
  forall r res, api_run ctl r0 (map Write chunks) = (r, res) -> Forall (fun x => x = ROk) res -> P (rw_stream r).
Proof.
  intros HP chunks r0 H0 Hp He r res Er Hall.
  exact (proj1 (writes_run (fun s _ => P s) (fun s _ data s' => HP s data s') chunks r0 [] r res H0 Hp He Er Hall)).
Qed.
End MachineFacts.

(* The interpreter of the state table inspects the machine only, and changes the context only by running actions:
   a predicate of (machine, context) that the cursor and state updates keep and every action keeps is kept by the loop. *)
Section Interp.
Context {C : Type} (ctl : controller C).
Notation ctx := (@ctx C).
Variable input : bytes.
Variable base : nat.
Variable P : mach -> ctx -> Prop.
Variable Q : ctx -> Prop.

Definition aP (r : @act_res C) : Prop :=
  match r with AOk m c | ASwitch _ _ m c => P m c | AErr _ c | APanic _ c => Q c end.
Definition armP (r : @arm_out C) : Prop :=
  match r with Continue m c | Return m c | Switch _ _ m c => P m c | ArmErr _ c | ArmPanic _ c => Q c end.
Definition bP (r : @body_out C) : Prop :=
  match r with BContinue m c | BBreak m c | BSwitch _ _ m c => P m c | BErr _ c | BPanic _ c => Q c end.
Definition lP (r : @loop_res C) : Prop :=
  match r with LEnd m c _ | LSwitch _ _ m c => P m c | LErr _ c | LPanic _ c | LFuel c => Q c end.
Definition seqP (c : ctx) (o : seq_out) : Prop := match o with SeqMatched m | SeqBreak m | SeqNo m => P m c end.

Hypothesis PQ : forall m c, P m c -> Q c.
Hypothesis P_pos : forall m c p, P m c -> P (set_pos m p) c.
Hypothesis P_state : forall m c s e, P m c -> P (set_state m s e) c.
Hypothesis P_seq : forall bsq ic ch m c, P m c -> seqP c (seq_match input bsq ic ch m).
Hypothesis P_adjust : forall m c, P m c -> P (adjust_for_next_input m) c.
Hypothesis P_act : forall a m c, P m c -> aP (do_action ctl input base a m c).

Lemma do_actions_P acts : forall m c, P m c -> aP (do_actions ctl input base acts m c).
Proof.
  induction acts as [|a r IH]; intros m c H; cbn; [exact H|].
  apply (P_act a) in H. destruct (do_action ctl input base a m c); cbn in *; auto.
Qed.
Lemma run_alist_P al : forall m c, P m c -> armP (run_alist ctl input base al m c).
Proof.
  induction al as [acts tr|cd t IHt e IHe]; intros m c H; cbn.
  - apply (do_actions_P acts) in H. destruct (do_actions ctl input base acts m c); cbn in *; auto.
    destruct tr; cbn; auto.
  - destruct (eval_cond cd m); auto.
Qed.
Lemma of_arm_P r : armP r -> bP (of_arm r).
Proof. destruct r; exact (fun H => H). Qed.
Lemma try_seq_arms_P arms : forall ch m c, P m c ->
  match try_seq_arms ctl input base arms ch m c with (_, Some o) => bP o | (m', None) => P m' c end.
Proof.
  induction arms as [|[p al] r IH]; intros ch m c H; cbn; [exact H|].
  destruct p; try (apply IH, H).
  apply (P_seq bs ignore_case ch) in H. destruct (seq_match input bs ignore_case ch m); cbn in H; [|exact H | apply IH, H].
  apply of_arm_P, run_alist_P, H.
Qed.
Lemma arm_body_P p m c o : P m c -> armP o -> bP (arm_body p m c o).
Proof.
  intros Hm H. destruct p; cbn [arm_body]; try apply of_arm_P, H; [|destruct (is_last m); [|exact Hm]]; destruct o; exact H.
Qed.
Lemma try_arms_P arms : forall ch m c, P m c -> bP (try_arms ctl input base arms ch m c).
Proof.
  induction arms as [|[p al] r IH]; intros ch m c H; [exact (PQ m c H)|]. rewrite try_arms_cons.
  destruct (pat_matches p ch m); [apply arm_body_P; [|apply run_alist_P]; exact H | apply IH, H].
Qed.
Lemma body_iter_P sd m c : P m c -> bP (body_iter ctl input base sd m c).
Proof.
  intro H. unfold body_iter. destruct (memchr_of (sd_arms sd)).
  - destruct (find_from _ _ _ _); apply try_arms_P, P_pos, H.
  - apply (P_pos _ _ (S (next_pos m))), (try_seq_arms_P (sd_arms sd) (getb input (next_pos m))) in H.
    destruct (try_seq_arms _ _ _ _ _ _ _) as [m'' [o|]]; [exact H | apply try_arms_P, H].
Qed.
Lemma enter_state_P m c : P m c -> aP (enter_state ctl input base m c).
Proof.
  intro H. unfold enter_state. destruct (m_entered (mode_of m)); [exact H|].
  destruct (sd_enter (table (m_st (mode_of m)))) as [|a acts]; [apply P_state, H|].
  apply (P_pos _ _ (S (next_pos m))), (do_actions_P (a :: acts)) in H.
  destruct (do_actions ctl input base (a :: acts) _ c); cbn in *; auto.
Qed.
Lemma end_of_chunk_P m c : P m c -> lP (end_of_chunk input m c).
Proof.
  intro H. unfold end_of_chunk. cbv zeta. destruct (_ <=? _); [|exact (PQ m c H)].
  apply P_pos. destruct (is_last m); auto.
Qed.
Lemma run_loop_P fuel : forall m c, P m c -> lP (run_loop ctl input base fuel m c).
Proof.
  induction fuel as [|f IH]; intros m c H; [exact (PQ m c H)|]. rewrite run_loop_S.
  apply enter_state_P in H. destruct (enter_state ctl input base m c) as [m1 c1| | |]; try exact H.
  apply (body_iter_P (table (m_st (mode_of m)))) in H.
  destruct (body_iter ctl input base _ m1 c1) as [m2 c2|m2 c2| | |]; try exact H; [apply IH, H | apply end_of_chunk_P, H].
Qed.
End Interp.
