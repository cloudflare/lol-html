(* C13 / C14 (text clause): for ANY streaming decoder that behaves like a whole-buffer decoder cut into pieces
   (the laws below are the assumed behaviour of encoding_rs, recorded in the trusted base), lol-html's TextDecoder
   delivers, for every split of a text node into lexemes, chunks whose concatenation is the whole-buffer decode of the
   node's bytes, whose ranges tile the node, and of which exactly the final one is flagged last_in_text_node. *)
From LolModel Require Import Base TextDecoder.
From Coq Require Import Lia List.
Import ListNotations.
Open Scope nat_scope.
Arguments td_pending {dstate}. Arguments td_start {dstate}. Arguments td_end {dstate}. Arguments mkTD {dstate}.

Fixpoint tiles (cs : list tchunk) (a b : nat) : Prop :=
  match cs with [] => a = b | c :: r => tc_a c = a /\ a <= tc_b c /\ tiles r (tc_b c) b end.
Definition texts (cs : list tchunk) : bytes := concat (map tc_text cs).
Definition none_last (cs : list tchunk) : Prop := Forall (fun c => tc_last c = false) cs.

Lemma tiles_snoc cs a b c : tiles cs a b -> tc_a c = b -> b <= tc_b c -> tiles (cs ++ [c]) a (tc_b c).
Proof. revert a. induction cs as [|x r IH]; intros a H Ha Hb; cbn in *; [subst; auto | destruct H as [H1 [H2 H3]]; auto]. Qed.
Lemma tiles_le cs : forall a b, tiles cs a b -> a <= b.
Proof. induction cs as [|x r IH]; intros a b H; cbn in H; [lia | destruct H as [H1 [H2 H3]]; specialize (IH _ _ H3); lia]. Qed.
Lemma texts_snoc cs c : texts (cs ++ [c]) = texts cs ++ tc_text c.
Proof. unfold texts. rewrite map_app, concat_app. cbn. rewrite app_nil_r. reflexivity. Qed.

(* What is assumed of a streaming decoder, stated against a transducer over bytes (a0 its fresh state, abs st the state of a
   concrete decoder): run a x is the text produced for the bytes x and the state afterwards, fin a what an unfinished
   sequence becomes at the end of the input (U+FFFD or nothing). A call reads a prefix, all of it if it reports the input
   empty and some of it otherwise, and writes what run gives for it, then fin if it is the last call and reports the input
   empty (dl_decode); a fresh decoder copies the prefix that valid_up_to finds (dl_fast). *)
Record decoder_laws {dstate A : Type} (dnew : dstate) (ddecode : dstate -> bytes -> nat -> bool -> bool * nat * bytes * dstate)
       (valid_up_to : bytes -> nat) (a0 : A) (run : A -> bytes -> bytes * A) (fin : A -> bytes) (abs : dstate -> A) : Prop := {
  dl_nil : forall a, run a [] = ([], a);
  dl_app : forall a x y, run a (x ++ y) = let (o1, a1) := run a x in let (o2, a2) := run a1 y in (o1 ++ o2, a2);
  dl_new : abs dnew = a0;
  dl_decode : forall st inp last fin' read out st',
    ddecode st inp BUF last = (fin', read, out, st') ->
    read <= length inp /\ (fin' = true -> read = length inp) /\ (fin' = false -> 0 < read) /\
    (let (o, a') := run (abs st) (firstn read inp) in
     if last && fin' then out = o ++ fin a' else (out = o /\ abs st' = a'));
  dl_fast : forall raw, valid_up_to raw <= length raw /\ run a0 (firstn (valid_up_to raw) raw) = (firstn (valid_up_to raw) raw, a0)
}.
Arguments dl_nil {_ _ _ _ _ _ _ _ _}. Arguments dl_app {_ _ _ _ _ _ _ _ _}. Arguments dl_new {_ _ _ _ _ _ _ _ _}.
Arguments dl_decode {_ _ _ _ _ _ _ _ _} _ {_ _ _ _ _ _ _}. Arguments dl_fast {_ _ _ _ _ _ _ _ _}.

Section Laws.
Variable dstate : Type.
Variable dnew : dstate.
Variable ddecode : dstate -> bytes -> nat -> bool -> bool * nat * bytes * dstate.
Variable valid_up_to : bytes -> nat.

Variable A : Type.
Variable a0 : A.
Variable run : A -> bytes -> bytes * A.
Variable fin_of : A -> bytes.
Variable abs : dstate -> A.
Definition W (x : bytes) : bytes := let (o, a) := run a0 x in o ++ fin_of a.     (* whole-buffer decode *)

Hypothesis laws : decoder_laws dnew ddecode valid_up_to a0 run fin_of abs.

Notation feed := (feed_text dstate dnew ddecode valid_up_to).
Notation flush := (flush_pending dstate dnew ddecode valid_up_to).
Notation loop := (td_loop dstate ddecode).

(* the state between two lexemes of a node whose bytes so far are Y *)
Definition Mid (start : nat) (t : td dstate) (cs : list tchunk) (Y : bytes) : Prop :=
  exists st, td_pending t = Some st /\ texts cs = fst (run a0 Y) /\ abs st = snd (run a0 Y) /\
             tiles cs start (td_start t) /\ td_start t <= td_end t /\ td_end t = start + length Y /\ none_last cs.

Lemma Wpart_step Y st x o a' : abs st = snd (run a0 Y) -> run (abs st) x = (o, a') -> run a0 (Y ++ x) = (fst (run a0 Y) ++ o, a').
Proof. intros Hp Hx. rewrite (dl_app laws). destruct (run a0 Y) as [o1 a1]. cbn in *. rewrite <- Hp, Hx. reflexivity. Qed.

(* one more stretch x of the node is decoded, and reported as a chunk or (if it gave no text) not *)
Lemma Mid_step {start dec next pos cs acc Y x o dec'} {emit : bool} {n} :
  Mid start (mkTD (Some dec) next pos) (cs ++ acc) Y -> run (abs dec) x = (o, abs dec') -> length x = n -> (emit = false -> o = []) ->
  Mid start (mkTD (Some dec') (if emit then pos + n else next) (pos + n))
      (cs ++ if emit then acc ++ [mkTC o false next (pos + n)] else acc) (Y ++ x).
Proof.
  intros (st & Hp & Ht & Ha & Hti & Hle & He & Hnl) Hx <- Hemit. cbn [td_pending td_start td_end] in *. injection Hp as <-.
  exists dec'. cbn [td_pending td_start td_end]. rewrite (Wpart_step Y dec x o _ Ha Hx), app_length. cbn [fst snd].
  split; [reflexivity|]. destruct emit.
  - rewrite app_assoc, texts_snoc, Ht. split; [reflexivity|]. split; [reflexivity|].
    split; [apply (tiles_snoc _ start next); [exact Hti | reflexivity | cbn; lia]|]. split; [lia|]. split; [lia|].
    apply Forall_app. split; [exact Hnl | constructor; [reflexivity | constructor]].
  - rewrite (Hemit eq_refl), app_nil_r. repeat split; auto; lia.
Qed.

(* the decode loop, not the last call; cs are the chunks of the earlier lexemes *)
Lemma loop_mid start cs : forall fuel dec raw pos next acc Y, length raw < fuel ->
  Mid start (mkTD (Some dec) next pos) (cs ++ acc) Y ->
  let (t', acc') := loop fuel dec raw pos next false acc in Mid start t' (cs ++ acc') (Y ++ raw).
Proof.
  induction fuel as [|f IH]; intros dec raw pos next acc Y Hf HM; [lia|].
  cbn [td_loop]. destruct (ddecode dec raw BUF false) as [[[fin read] out] dec'] eqn:Ed.
  destruct (dl_decode laws Ed) as [Hr [Hfin [Hprog Hout]]].
  destruct (run (abs dec) (firstn read raw)) as [o a'] eqn:Ew. cbn [andb] in Hout. destruct Hout as [-> <-].
  set (emit := negb (length o =? 0) || false).
  assert (Hemit : emit = false -> o = []).
  { unfold emit. rewrite orb_false_r. intros E. apply length_zero_iff_nil, Nat.eqb_eq, negb_false_iff, E. }
  assert (HM' := Mid_step HM Ew (firstn_length_le _ Hr) Hemit). cbn [andb].
  destruct fin.
  - specialize (Hfin eq_refl). subst read. rewrite firstn_all in HM'. exact HM'.
  - replace (Y ++ raw) with ((Y ++ firstn read raw) ++ skipn read raw) by (rewrite <- app_assoc, firstn_skipn; reflexivity).
    apply IH; [rewrite skipn_length; specialize (Hprog eq_refl); lia | exact HM'].
Qed.

Lemma split_spec {raw txt rest} :
  split_utf8_start dstate valid_up_to (td0 dstate) raw = Some (txt, rest) -> raw = txt ++ rest /\ run a0 txt = (txt, a0).
Proof.
  unfold split_utf8_start. cbn [td_pending td0]. destruct (dl_fast laws raw) as [Hv Hw].
  destruct (Nat.eqb_spec (valid_up_to raw) (length raw)) as [Hall|_].
  - intros [= <- <-]. rewrite Hall, firstn_all in Hw. rewrite app_nil_r. auto.
  - destruct (_ <? BUF); [discriminate|]. intros [= <- <-]. rewrite firstn_skipn. auto.
Qed.
(* feeding one lexeme (never the last call: the dispatcher only passes last = true through flush_pending) *)
Lemma feed_first start raw : let (t', cs) := feed (td0 dstate) raw start false in Mid start t' cs raw.
Proof.
  assert (M0 : Mid start (mkTD (Some dnew) start start) ([] ++ []) []).
  { exists dnew. cbn. rewrite (dl_nil laws), (dl_new laws). repeat split; auto. constructor. }
  unfold feed_text. cbn [td_pending td0 andb]. destruct (split_utf8_start _ _ _ raw) as [[txt rest]|] eqn:Es.
  - destruct (split_spec Es) as [-> Hw]. rewrite <- (dl_new laws) in Hw.
    apply (loop_mid start [] _ dnew rest _ _ [_] txt (Nat.lt_succ_diag_r _)).
    apply (Mid_step (emit := true) M0 Hw eq_refl). discriminate.
  - exact (loop_mid start [] _ dnew raw start start [] [] (Nat.lt_succ_diag_r _) M0).
Qed.
Lemma feed_next start t cs Y raw : Mid start t cs Y ->
  let (t', cs') := feed t raw (start + length Y) false in Mid start t' (cs ++ cs') (Y ++ raw).
Proof.
  intros HM. destruct t as [pend ts te]. pose proof HM as (st & Hp & _ & _ & _ & _ & He & _). cbn [td_pending td_end] in Hp, He. subst pend te.
  unfold feed_text, split_utf8_start. cbn [td_pending td_start].
  apply (loop_mid start cs _ st raw _ ts [] Y (Nat.lt_succ_diag_r _)). rewrite app_nil_r. exact HM.
Qed.

Lemma feed_all_mid start : forall pieces t cs Y, Mid start t cs Y ->
  let (t', cs') := feed_all dstate dnew ddecode valid_up_to t pieces (start + length Y) in Mid start t' (cs ++ cs') (Y ++ concat pieces).
Proof.
  induction pieces as [|p rest IH]; intros t cs Y Hm; cbn [feed_all concat].
  - rewrite !app_nil_r. exact Hm.
  - pose proof (feed_next start t cs Y p Hm) as H1.
    destruct (feed t p (start + length Y) false) as [t1 c1].
    specialize (IH t1 (cs ++ c1) (Y ++ p) H1). rewrite app_length, Nat.add_assoc in IH.
    destruct (feed_all dstate dnew ddecode valid_up_to t1 rest (start + length Y + length p)) as [t2 c2].
    rewrite <- !app_assoc in IH. exact IH.
Qed.

Lemma flush_mid start t cs Y : Mid start t cs Y ->
  let (t', c2) := flush t in
  texts (cs ++ c2) = W Y /\ tiles (cs ++ c2) start (start + length Y) /\
  exists c, c2 = [c] /\ tc_last c = true.
Proof.
  intros (st & Hp & Ht & Hpe & Hti & Hle & He & Hnl).
  unfold flush_pending. rewrite Hp. unfold feed_text, split_utf8_start. rewrite Hp. cbn [length td_loop].
  destruct (ddecode st [] BUF true) as [[[fin' read] out] dec'] eqn:Ed.
  destruct (dl_decode laws Ed) as [Hr [Hfin [Hprog Hout]]]. cbn [length] in Hr. apply Nat.le_0_r in Hr. subst read.
  destruct fin'; [|specialize (Hprog eq_refl); lia].
  cbn [firstn] in Hout. rewrite (dl_nil laws) in Hout. cbn [andb app] in Hout. rewrite Hpe in Hout.
  rewrite orb_true_r. cbn [andb app]. rewrite Nat.add_0_r.
  split; [|split].
  - rewrite texts_snoc, Ht. cbn [tc_text]. rewrite Hout. unfold W. destruct (run a0 Y); reflexivity.
  - rewrite <- He. apply (tiles_snoc cs start (td_start t) {| tc_text := out; tc_last := true; tc_a := td_start t; tc_b := td_end t |}); cbn; auto.
  - eexists. split; reflexivity.
Qed.

Theorem text_node_is_whole_buffer_decode start p pieces :
  let cs := text_node dstate dnew ddecode valid_up_to (p :: pieces) start in
  texts cs = W (concat (p :: pieces))
  /\ tiles cs start (start + length (concat (p :: pieces)))
  /\ exists body final, cs = body ++ [final] /\ none_last body /\ tc_last final = true.
Proof.
  unfold text_node. cbn [feed_all concat].
  pose proof (feed_first start p) as H1. destruct (feed (td0 dstate) p start false) as [t1 c1].
  pose proof (feed_all_mid start pieces t1 c1 p H1) as H2.
  destruct (feed_all dstate dnew ddecode valid_up_to t1 pieces (start + length p)) as [t2 c2].
  pose proof (flush_mid start t2 (c1 ++ c2) (p ++ concat pieces) H2) as H3.
  destruct (flush t2) as [t3 c3]. destruct H3 as [HA [HB [c [-> Hc]]]].
  split; [exact HA|]. split; [exact HB|].
  exists (c1 ++ c2), c. split; [reflexivity|]. split; [|exact Hc].
  destruct H2 as (st & _ & _ & _ & _ & _ & _ & Hnl). exact Hnl.
Qed.
End Laws.

Theorem text_node_correct {dstate A} dnew ddecode valid_up_to (a0 : A) run fin abs :
  @decoder_laws dstate A dnew ddecode valid_up_to a0 run fin abs ->
  forall start p pieces,
  let cs := text_node dstate dnew ddecode valid_up_to (p :: pieces) start in
  texts cs = W A a0 run fin (concat (p :: pieces))
  /\ tiles cs start (start + length (concat (p :: pieces)))
  /\ exists body final, cs = body ++ [final] /\ none_last body /\ tc_last final = true.
Proof. exact (text_node_is_whole_buffer_decode dstate dnew ddecode valid_up_to A a0 run fin abs). Qed.

(* the laws are satisfiable: the identity codec on ASCII (stateless) *)
Lemma identity_decoder_laws :
  @decoder_laws unit unit tt (fun _ inp _ _ => (true, length inp, inp, tt)) (fun raw => length raw) tt (fun _ x => (x, tt)) (fun _ => []) (fun _ => tt).
Proof.
  constructor; try reflexivity.
  - intros []. reflexivity.
  - intros st inp last fin' read out st' E. injection E as <- <- <- <-. rewrite firstn_all. cbn.
    split; [lia|]. split; [reflexivity|]. split; [discriminate|]. rewrite andb_true_r. destruct last; [rewrite app_nil_r|]; auto.
  - intros raw. rewrite firstn_all. split; [lia | reflexivity].
Qed.
