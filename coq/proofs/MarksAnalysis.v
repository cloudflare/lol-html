(* C09: a may-analysis of the tag scanner's tag_start mark over the regenerated table.
   marked st = true  iff  some path through the table can enter state st with tag_start still set.
   The obligation: no state that emits text at the end of a chunk (an `eoc` arm) can be entered with the mark set,
   i.e. in ordinary text nothing is held back.  (Soundness of the analysis w.r.t. the interpreter is validated by the
   correspondence run on pending bytes, not proved.) *)
From LolGen Require Import StateTable.
From Coq Require Import List Bool.
Import ListNotations.

Definition act_mark (a : action) (m : bool) : bool :=
  match a with A_mark_tag_start => true | A_unmark_tag_start => false | A_finish_tag_name => false | _ => m end.
Definition text_states : list state := [data_state; plaintext_state; rcdata_state; rawtext_state; script_data_state; cdata_section_state].
(* (target state, mark) pairs an action list can produce *)
Fixpoint al_targets (al : alist) (m : bool) (self : state) : list (state * bool) :=
  match al with
  | AL acts tr =>
      let m' := fold_left (fun x a => act_mark a x) acts m in
      match tr with
      | T_none => [(self, m')]
      | T_goto s _ | T_reconsume s => [(s, m')]
      | T_dyn_next_text_parsing_state => map (fun s => (s, m')) text_states
      end
  | AL_if _ t e => al_targets t m self ++ al_targets e m self
  end.
Definition step (cur : state -> bool) : list (state * bool) :=
  flat_map (fun st =>
    let m := cur st in
    let m1 := fold_left (fun x a => act_mark a x) (sd_enter (table st)) m in
    flat_map (fun pa => al_targets (snd pa) m1 st) (sd_arms (table st))) all_states.
Definition join (cur : state -> bool) (ups : list (state * bool)) : state -> bool :=
  fun st => cur st || existsb (fun u => state_eqb (fst u) st && snd u) ups.
Fixpoint iterate (n : nat) (cur : state -> bool) : state -> bool :=
  match n with O => cur | S k => iterate k (join cur (step cur)) end.
Definition marked : state -> bool := iterate 12 (fun _ => false).
Definition has_eoc (st : state) : bool := existsb (fun pa => match fst pa with P_eoc => true | _ => false end) (sd_arms (table st)).

(* What is evaluated (marks_checked) is another presentation of the sets of `iterate`: `round cur` is `join cur (step cur)` kept
   as a table of booleans (round_agree); `tabulated n` makes up to n rounds and stops at the first that changes nothing, from
   where `iterate` changes nothing (stable_agree): the two agree on every state (tabulated_agree). *)
Definition agree (f g : state -> bool) : Prop := forall st, f st = g st.
Lemma step_ext f g : agree f g -> step f = step g.
Proof. intros H. apply flat_map_ext. intros s. rewrite (H s). reflexivity. Qed.

Definition tabulate (f : state -> bool) : state -> bool :=
  let t := map f all_states in fun st => nth (state_index st) t false.
Lemma tabulate_agree f : agree (tabulate f) f.
Proof. intros st. unfold tabulate. destruct st; reflexivity. Qed.
Definition round (cur : state -> bool) : state -> bool :=
  let hot := map fst (filter snd (step cur)) in
  tabulate (fun st => cur st || existsb (fun s => state_eqb s st) hot).
Lemma round_agree f g : agree f g -> agree (round f) (join g (step g)).
Proof.
  intros H st. unfold round, join. rewrite tabulate_agree, (step_ext f g H), (H st). f_equal.
  induction (step g) as [|[s b] r IH]; [reflexivity|].
  destruct b; cbn [filter map existsb fst snd]; rewrite IH; [rewrite andb_true_r | rewrite andb_false_r]; reflexivity.
Qed.
Lemma stable_agree n : forall f g, agree f g -> agree (round f) f -> agree f (iterate n g).
Proof.
  induction n as [|n IH]; intros f g H Hs; [exact H|]. apply IH; [|exact Hs].
  intros st. rewrite <- (Hs st). apply round_agree, H.
Qed.
Lemma all_states_complete st : In st all_states.
Proof. apply (nth_error_In _ (state_index st)). destruct st; reflexivity. Qed.
(* `next` is bound outside the `forallb`, here and in marks_checked, so that the round is evaluated once, not per state *)
Fixpoint tabulated (n : nat) (cur : state -> bool) : state -> bool :=
  match n with
  | O => cur
  | S k => (fun next => if forallb (fun st => Bool.eqb (next st) (cur st)) all_states then cur else tabulated k next) (round cur)
  end.
Lemma tabulated_agree n : forall f g, agree f g -> agree (tabulated n f) (iterate n g).
Proof.
  induction n as [|n IH]; intros f g H; [exact H|]. cbn [tabulated]. cbv beta. destruct (forallb _ all_states) eqn:E.
  - apply stable_agree; [exact H|]. intros st. apply eqb_prop. rewrite forallb_forall in E. apply E, all_states_complete.
  - apply IH, round_agree, H.
Qed.

Lemma marks_checked :
  (fun m => (fun next => forallb (fun st => Bool.eqb (m st) (next st) && negb (has_eoc st && m st)) all_states) (round m))
    (tabulated 12 (fun _ => false)) = true.
Proof. vm_compute. reflexivity. Qed.

Lemma marked_spec st : marked st = join marked (step marked) st /\ negb (has_eoc st && marked st) = true.
Proof.
  pose proof marks_checked as H. cbv beta in H. rewrite forallb_forall in H.
  specialize (H st (all_states_complete st)). apply andb_prop in H as [H1 H2]. apply eqb_prop in H1.
  assert (Ha : agree (tabulated 12 (fun _ => false)) marked) by (apply tabulated_agree; intro; reflexivity).
  rewrite (round_agree _ _ Ha st), (Ha st) in H1. rewrite (Ha st) in H2. split; assumption.
Qed.

(* the analysis has reached its fixpoint (so 12 rounds are enough for this table) *)
Lemma marks_fixpoint : forallb (fun st => Bool.eqb (marked st) (join marked (step marked) st)) all_states = true.
Proof. apply forallb_forall. intros st _. apply eqb_true_iff, marked_spec. Qed.
(* in every text-emitting state the scanner holds no tag start *)
Lemma text_states_hold_nothing : forallb (fun st => negb (has_eoc st && marked st)) all_states = true.
Proof. apply forallb_forall. intros st _. apply marked_spec. Qed.
