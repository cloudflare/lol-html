(* C17: the error-reporting protocol of the C layer (c-api/src/errors.rs, the unwrap_or_ret* macros): a failing entry point
   stores its message in the calling thread's slot and returns an error code; lol_html_take_last_error moves the message
   out.  Model of one thread's slot over an arbitrary history of calls. *)
From Coq Require Import List String ZArith.
Import ListNotations.

Inductive c_event := CallOk | CallFail (msg : string) | Take.
Definition slot := option string.
(* one step: the new slot and what the C caller sees (return code, or the taken message) *)
Inductive c_seen := RetCode (rc : Z) | Taken (m : option string).
Definition c_step (s : slot) (e : c_event) : slot * c_seen :=
  match e with
  | CallOk => (s, RetCode 0)
  | CallFail m => (Some m, RetCode (-1))
  | Take => (None, Taken s)
  end.
Fixpoint c_run (s : slot) (h : list c_event) : slot * list c_seen :=
  match h with [] => (s, []) | e :: r => let (s1, o) := c_step s e in let (s2, os) := c_run s1 r in (s2, o :: os) end.

(* the message of the most recent failure that no later Take has consumed *)
Fixpoint pending (acc : slot) (h : list c_event) : slot :=
  match h with [] => acc | CallOk :: r => pending acc r | CallFail m :: r => pending (Some m) r | Take :: r => pending None r end.
Lemma c_run_slot h : forall s, fst (c_run s h) = pending s h.
Proof.
  induction h as [|e r IH]; intros s; [reflexivity|].
  destruct e; cbn [c_run c_step pending]; rewrite <- IH; destruct (c_run _ r); reflexivity.
Qed.
(* what a Take at the end of any history returns: the most recent failure not yet taken, nothing otherwise *)
Theorem take_returns_latest_untaken_failure h s :
  snd (c_step (fst (c_run s h)) Take) = Taken (pending s h).
Proof. rewrite c_run_slot. reflexivity. Qed.
(* return codes: 0 exactly for successful calls, -1 exactly for failing ones; a successful call never touches the slot *)
Lemma c_step_codes s e : match e with CallOk => c_step s e = (s, RetCode 0) | CallFail m => c_step s e = (Some m, RetCode (-1)) | Take => c_step s e = (None, Taken s) end.
Proof. destruct e; reflexivity. Qed.
