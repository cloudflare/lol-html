(* C04: the stack of the selector VM holds, for every open element, the frontier of the AST:
   jumps = children of the nodes matched there, hereditary jumps = their descendant branches, matched ids = their ids;
   the active hereditary jumps are the de-duplicated union of the hereditary jumps of all open elements. *)
From LolModel Require Import Selectors.
From LolSpec Require Import CssSem.
From LolProofs Require Import Bailout AstSem Frontier VmExec.
From Coq Require Import Lia List.
Import ListNotations.
Open Scope nat_scope.

(* vs_active_hj as a function of the items: stack_push extends it by pushfold, stack_pop_up_to filters it by depth *)
Definition pushfold (acc : list (range * nat)) (hs : list range) (depth : nat) : list (range * nat) :=
  fold_left (fun acc r => if existsb (fun a => range_eqb (fst a) r) acc then acc else acc ++ [(r, depth)]) hs acc.
Fixpoint ahj_from (acc : list (range * nat)) (items : list stack_item) (d : nat) : list (range * nat) :=
  match items with [] => acc | it :: r => ahj_from (pushfold acc (si_hjumps it) d) r (S d) end.
Definition ahj (items : list stack_item) : list (range * nat) := ahj_from [] items 0.

Lemma range_eqb_eq a b : range_eqb a b = true <-> a = b.
Proof.
  unfold range_eqb. rewrite andb_true_iff, !Nat.eqb_eq. destruct a, b; cbn. split; [intros [-> ->]; reflexivity | intros E; injection E; auto].
Qed.
Lemma existsb_range acc r : existsb (fun a : range * nat => range_eqb (fst a) r) acc = true <-> In r (map fst acc).
Proof.
  rewrite existsb_exists, in_map_iff. split; intros [x [H1 H2]]; exists x.
  - apply range_eqb_eq in H2. auto.
  - split; [exact H2 | apply range_eqb_eq; exact H1].
Qed.
Lemma pushfold_spec d : forall hs acc, exists extra, pushfold acc hs d = acc ++ extra /\ Forall (fun a => snd a = d) extra /\
  forall r, In r (map fst (pushfold acc hs d)) <-> In r (map fst acc) \/ In r hs.
Proof.
  induction hs as [|h hs IH]; intros acc; cbn [pushfold fold_left].
  - exists []. rewrite app_nil_r. split; [reflexivity|]. split; [constructor|]. cbn. tauto.
  - fold (pushfold (if existsb (fun a => range_eqb (fst a) h) acc then acc else acc ++ [(h, d)]) hs d).
    destruct (existsb _ acc) eqn:Ex.
    + destruct (IH acc) as [extra [E [F M]]]. exists extra. split; [exact E|]. split; [exact F|].
      apply existsb_range in Ex. intros r. rewrite M. cbn. split; [intros [H|H]; auto | intros [H|[<-|H]]; auto].
    + destruct (IH (acc ++ [(h, d)])) as [extra [E [F M]]]. exists ((h, d) :: extra). split; [rewrite E, <- app_assoc; reflexivity|].
      split; [constructor; [reflexivity | exact F]|]. intros r. rewrite M, map_app, in_app_iff. cbn.
      split; [intros [[H|[H|[]]]|H]; auto | intros [H|[H|H]]; auto].
Qed.
Lemma ahj_from_snoc it : forall items acc d, ahj_from acc (items ++ [it]) d = pushfold (ahj_from acc items d) (si_hjumps it) (d + length items).
Proof.
  induction items as [|x items IH]; intros acc d; cbn [app ahj_from length]; [rewrite Nat.add_0_r; reflexivity|].
  rewrite IH, Nat.add_succ_r. reflexivity.
Qed.
Lemma ahj_snoc items it : ahj (items ++ [it]) = pushfold (ahj items) (si_hjumps it) (length items).
Proof. unfold ahj. rewrite ahj_from_snoc. reflexivity. Qed.
Lemma ahj_mem r : forall items, In r (map fst (ahj items)) <-> In r (flat_map si_hjumps items).
Proof.
  induction items as [|it items IH] using rev_ind; [reflexivity|].
  rewrite ahj_snoc. destruct (pushfold_spec (length items) (si_hjumps it) (ahj items)) as [extra [_ [_ M]]].
  rewrite M, IH, flat_map_app, in_app_iff. cbn [flat_map]. rewrite app_nil_r. reflexivity.
Qed.
Lemma filter_const {A} (f : A -> bool) b l : Forall (fun a => f a = b) l -> filter f l = if b then l else [].
Proof. induction 1 as [|a l H _ IH]; cbn [filter]; [destruct b; reflexivity | rewrite H, IH; destruct b; reflexivity]. Qed.
Lemma ahj_firstn index : forall items, filter (fun a => snd a <? index) (ahj items) = ahj (firstn index items).
Proof.
  induction items as [|it items IH] using rev_ind; [destruct index; reflexivity|].
  rewrite ahj_snoc. destruct (pushfold_spec (length items) (si_hjumps it) (ahj items)) as [extra [E [F _]]].
  (* what the innermost item has added goes or stays as a whole *)
  rewrite E, filter_app, IH, (filter_const _ (length items <? index)) by (eapply Forall_impl; [|exact F]; cbn; intros a ->; reflexivity).
  destruct (Nat.ltb_spec (length items) index) as [Hlt|Hle].
  - rewrite !firstn_all2 by (rewrite ?app_length; cbn [length]; lia). rewrite ahj_snoc, E. reflexivity.
  - rewrite firstn_app, (proj2 (Nat.sub_0_le _ _) Hle). cbn [firstn]. rewrite !app_nil_r. reflexivity.
Qed.

(* rnode_unique (an instruction represents at most one node) goes by induction on the size of the node *)
Fixpoint nsize (n : ast_node) : nat :=
  match n with Node _ ch ds _ => S (fold_right (fun x acc => nsize x + acc) 0 ch + fold_right (fun x acc => nsize x + acc) 0 ds) end.
Definition lsize (l : list ast_node) : nat := fold_right (fun x acc => nsize x + acc) 0 l.
Lemma nsize_eq n : nsize n = S (lsize (n_children n) + lsize (n_desc n)).
Proof. destruct n; reflexivity. Qed.
Lemma lsize_in x l : In x l -> nsize x <= lsize l.
Proof. induction l as [|y l IH]; [intros []|]. cbn [lsize fold_right]. fold (lsize l). intros [->|H]; [lia | specialize (IH H); lia]. Qed.

Section Prog.
Variable prog : program.
Lemma forall2_unique_l {A B} {R : A -> B -> Prop} {l m} : Forall2 R l m ->
  forall {l'}, Forall2 R l' m -> (forall x x' y, In x l -> R x y -> R x' y -> x = x') -> l = l'.
Proof.
  induction 1 as [|x y l m Hxy _ IH]; intros l' F' U; inversion F' as [|x' ? l'' ? Hxy' F'']; subst; [reflexivity|].
  f_equal; [exact (U x x' y (or_introl eq_refl) Hxy Hxy') | apply (IH _ F'')]. intros a a' b Ha. apply U. right. exact Ha.
Qed.
Lemma jrep_unique {ch ch' oj} : jrep prog ch oj -> jrep prog ch' oj ->
  (forall x x' i, In x ch -> rnode prog x i -> rnode prog x' i -> x = x') -> ch = ch'.
Proof.
  intros A B U. unfold jrep in A, B. destruct ch as [|x ch], ch' as [|x' ch']; [reflexivity | | |].
  - destruct B as [r [E _]]. rewrite A in E. discriminate.
  - destruct A as [r [E _]]. rewrite B in E. discriminate.
  - destruct A as [r [E RA]]. destruct B as [r' [E' RB]]. rewrite E in E'. injection E' as <-.
    exact (forall2_unique_l (rrange_instrs prog RA) (rrange_instrs prog RB) U).
Qed.
Lemma rnode_unique : forall k b b' i, nsize b <= k -> rnode prog b i -> rnode prog b' i -> b = b'.
Proof.
  induction k as [|k IH]; intros b b' i Hk H1 H2; rewrite nsize_eq in Hk; [lia|].
  apply rnode_eq in H1. apply rnode_eq in H2. destruct b, b'. cbn [n_pred n_ids n_children n_desc] in *.
  destruct H1 as [P1 [I1 [J1 D1]]]. destruct H2 as [P2 [I2 [J2 D2]]].
  f_equal; [congruence | apply (jrep_unique J1 J2) | apply (jrep_unique D1 D2) | congruence];
    intros y y' j Hy; apply IH; apply lsize_in in Hy; clear - Hk Hy; lia.
Qed.
Lemma rrange_unique {r bs bs'} : rrange prog r bs -> rrange prog r bs' -> bs = bs'.
Proof.
  intros RA RB. apply (forall2_unique_l (rrange_instrs prog RA) (rrange_instrs prog RB)).
  intros x x' i _. exact (rnode_unique _ x x' i (le_n _)).
Qed.

Lemma forall2_in {A B} {R : A -> B -> Prop} {l l'} : Forall2 R l l' ->
  (forall x, In x l -> exists y, In y l' /\ R x y) /\ (forall y, In y l' -> exists x, In x l /\ R x y).
Proof.
  induction 1 as [|a b l l' H _ [IHl IHr]]; [split; intros ? []|].
  split; [intros x [<-|Hx]; [exists b | destruct (IHl x Hx) as [y [H1 H2]]; exists y] |
          intros y [<-|Hy]; [exists a | destruct (IHr y Hy) as [x [H1 H2]]; exists x]]; cbn; auto.
Qed.
Lemma forall_exists_forall2 {A B} (R : A -> B -> Prop) l : Forall (fun x => exists y, R x y) l -> exists l', Forall2 R l l'.
Proof. induction 1 as [|a l [y Hy] _ [l' IH]]; [exists []; constructor | exists (y :: l'); constructor; assumption]. Qed.

(* a range represents one list of nodes, so what a list of ranges represents depends only on which ranges occur in it *)
Lemma rrange_concat_incl {rl nss rl' nss'} : Forall2 (rrange prog) rl nss -> Forall2 (rrange prog) rl' nss' ->
  (forall r, In r rl -> In r rl') -> forall b, In b (concat nss) -> In b (concat nss').
Proof.
  intros F F' Hi b Hb. apply in_concat in Hb. destruct Hb as [bs [A D]]. destruct (proj2 (forall2_in F) _ A) as [r [Hr C]].
  destruct (proj1 (forall2_in F') _ (Hi r Hr)) as [bs' [A' C']]. rewrite (rrange_unique C C') in D. apply in_concat. exists bs'. auto.
Qed.
Lemma Reps_same_ranges rl rl' ns : (forall r, In r rl' <-> In r rl) -> Reps prog rl ns -> Reps prog rl' ns.
Proof.
  intros Hm [nss [F M]].
  assert (HF : Forall (fun r => exists bs, rrange prog r bs) rl').
  { apply Forall_forall. intros r Hr. apply Hm in Hr. destruct (proj1 (forall2_in F) _ Hr) as [bs [_ Hb]]. exists bs. exact Hb. }
  destruct (forall_exists_forall2 _ _ HF) as [nss' F']. exists nss'. split; [exact F'|]. intros b. rewrite M.
  split; [apply (rrange_concat_incl F F') | apply (rrange_concat_incl F' F)]; intros r; apply Hm.
Qed.

Definition item_ok (it : stack_item) (e : elem) (JH : list ast_node * list ast_node) : Prop :=
  Reps prog (si_jumps it) (flat_map n_children (matched e (fst JH) (snd JH))) /\
  Reps prog (si_hjumps it) (flat_map n_desc (matched e (fst JH) (snd JH))) /\
  forall x, In x (ed_matched (si_data it)) <-> In x (ids_at e JH).
Fixpoint SI (items : list stack_item) (anc : list elem) (JH : list ast_node * list ast_node) : Prop :=
  match items, anc with
  | [], [] => True
  | it :: items', e :: anc' => item_ok it e JH /\ SI items' anc' (fstep JH e)
  | _, _ => False
  end.
Lemma SI_snoc it e : forall {items anc JH}, SI items anc JH -> item_ok it e (fold_left fstep anc JH) -> SI (items ++ [it]) (anc ++ [e]) JH.
Proof.
  induction items as [|x items IH]; intros [|a anc] JH H Hok; cbn [SI] in H; try contradiction.
  - cbn [app SI fold_left] in *. auto.
  - cbn [app SI fold_left] in *. destruct H as [H1 H2]. split; [exact H1 | apply IH; assumption].
Qed.
Lemma SI_last x x' : (forall e JH, item_ok x e JH -> item_ok x' e JH) ->
  forall {items anc JH}, SI (items ++ [x]) anc JH -> SI (items ++ [x']) anc JH.
Proof.
  intros Hx. induction items as [|y items IH]; intros [|a anc] JH H; cbn [app SI] in *; try contradiction; destruct H as [H1 H2].
  - split; [apply Hx; exact H1 | exact H2].
  - split; [exact H1 | apply IH; exact H2].
Qed.
Lemma SI_firstn k : forall {items anc JH}, SI items anc JH -> SI (firstn k items) (firstn k anc) JH.
Proof.
  induction k as [|k IH]; intros items anc JH H; [destruct items, anc; exact I|].
  destruct items as [|x items], anc as [|a anc]; cbn [SI] in H; try contradiction; [exact I|].
  cbn [firstn SI]. destruct H as [H1 H2]. split; [exact H1 | apply IH; exact H2].
Qed.
Definition pj (items : list stack_item) : list range := match rev items with p :: _ => si_jumps p | [] => [] end.
Lemma pj_cons x y items : pj (x :: y :: items) = pj (y :: items).
Proof. unfold pj. cbn [rev]. destruct (rev items) as [|z zs]; reflexivity. Qed.
Lemma SI_parent : forall {items anc JH}, SI items anc JH -> (items = [] -> fst JH = []) -> Reps prog (pj items) (fst (fold_left fstep anc JH)).
Proof.
  induction items as [|x items IH]; intros [|a anc] JH H E; cbn [SI] in H; try contradiction; cbn [fold_left].
  - rewrite (E eq_refl). apply Reps_nil.
  - destruct H as [[H1 _] H2]. destruct items as [|y items].
    + destruct anc; [|contradiction]. exact H1.
    + rewrite pj_cons. apply IH; [exact H2 | discriminate].
Qed.
Lemma SI_hjumps : forall {items anc JH}, SI items anc JH ->
  exists X, Reps prog (flat_map si_hjumps items) X /\ snd (fold_left fstep anc JH) = snd JH ++ X.
Proof.
  induction items as [|x items IH]; intros [|a anc] JH H; cbn [SI] in H; try contradiction; cbn [fold_left flat_map].
  - exists []. split; [apply Reps_nil | symmetry; apply app_nil_r].
  - destruct H as [[_ [H1 _]] H2]. destruct (IH _ _ H2) as [X [R E]]. exists (flat_map n_desc (matched a (fst JH) (snd JH)) ++ X).
    split; [apply Reps_app; assumption|]. rewrite E. symmetry. apply app_assoc.
Qed.
Lemma SI_frontier {s anc root} : rrange prog (pr_entry prog) root -> SI (vs_items s) anc ([], root) -> vs_active_hj s = ahj (vs_items s) ->
  let JH := fold_left fstep anc ([], root) in Reps prog (all_sets prog s) (fst JH ++ snd JH).
Proof.
  intros He H Hhj JH. destruct (SI_hjumps H) as [X [RX E]]. fold JH in E. rewrite E. cbn [snd].
  apply (Reps_same_ranges _ (map fst (vs_active_hj s))) in RX; [|intros r; rewrite Hhj; apply ahj_mem].
  pose proof (SI_parent H (fun _ => eq_refl)) as RJ. fold JH in RJ.
  refine (Reps_ext prog _ (Reps_app prog (Reps_one prog He) (Reps_app prog RJ RX))).
  intros b. rewrite !in_app_iff. split; (intros [Hb|[Hb|Hb]]; auto).
Qed.
End Prog.
