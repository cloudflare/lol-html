(* C03: the ambiguity guard and the tree-builder simulator's tables against the WHATWG lists. *)
From LolModel Require Import TreeBuilder.
From LolSpec Require Import Whatwg.
From LolProofs Require Import StrictErase.

Definition h (s : string) : N := hash_of (bs s).
Definition same_set (a b : list N) : bool := forallb (fun x => one_of x b) a && forallb (fun x => one_of x a) b.
Definition list_of (t : list tag_test) (k : nat) : list N := match nth_error t k with Some (TT_list l) | Some (TT_eq l) | Some (TT_ne l) => l | None => [] end.

(* every Tag constant of src/html/tag.rs is the hash of its own name *)
Lemma tag_constants_are_hashes : forallb (fun p => (h (fst p) =? snd p)%N) all_tags = true.
Proof. vm_compute. reflexivity. Qed.

(* the lists of the standard are compared with the tables through the table of constants, so that no name is hashed a second time *)
Definition tag_named (name : string) : N :=
  match find (fun p => String.eqb (fst p) name) all_tags with Some p => snd p | None => h name end.
Lemma tag_named_h name : h name = tag_named name.
Proof.
  unfold tag_named. destruct (find _ all_tags) as [p|] eqn:E; [|reflexivity].
  apply find_some in E as [Hin Hn]. apply String.eqb_eq in Hn. subst name.
  apply N.eqb_eq. exact (proj1 (forallb_forall _ _) tag_constants_are_hashes p Hin).
Qed.

Definition text_mode_tags : list N := map h (whatwg_rcdata ++ whatwg_rawtext ++ whatwg_script ++ whatwg_plaintext).
Lemma tables_match_whatwg :
  same_set (list_of tt_get_text_type_adjustment 0) (map h whatwg_rcdata) &&
  same_set (list_of tt_get_text_type_adjustment 1) (map h whatwg_plaintext) &&
  same_set (list_of tt_get_text_type_adjustment 2) (map h whatwg_script) &&
  same_set (list_of tt_get_text_type_adjustment 3) (map h whatwg_rawtext) &&
  same_set (list_of tt_causes_foreign_content_exit 0) (map h whatwg_foreign_breakout) &&
  same_set (list_of tt_is_text_integration_point_in_math_ml 0) (map h whatwg_mathml_text_ip) &&
  same_set (list_of tt_is_html_integration_point_in_svg 0) (map h whatwg_svg_html_ip) &&
  same_set (list_of tt_is_void_element 1) (map h whatwg_void) &&
  same_set tt_assert_not_ambiguous text_mode_tags = true.
Proof. unfold text_mode_tags. rewrite !(map_ext h tag_named tag_named_h). vm_compute. reflexivity. Qed.

Lemma guard_refuses_only g t : guard_track_start g t = None ->
  one_of t tt_assert_not_ambiguous = true /\ (g = GInSelect \/ (exists d, g = GInTemplateInSelect d) \/ g = GInOrAfterFrameset).
Proof.
  unfold guard_track_start, assert_not_ambiguous. destruct (one_of t tt_assert_not_ambiguous); cbn [negb].
  - intro H. split; [reflexivity|]. destruct g as [| |d|]; [discriminate H | auto | right; left; exists d; reflexivity | auto].
  - destruct g; repeat destruct (tt_at tt_track_start_tag _ t); discriminate.
Qed.
Lemma one_of_Forall (P : N -> Prop) t l : one_of t l = true -> Forall P l -> P t.
Proof.
  intros Hin HP. apply existsb_exists in Hin as [x [Hx E]]. apply N.eqb_eq in E. subst x.
  exact (proj1 (Forall_forall P l) HP t Hx).
Qed.
(* the exceptions inside select are handled by the simulator as by a real tree builder: script is processed "in head",
   textarea closes the select *)
Lemma guard_refuses_in_select t : one_of t tt_assert_not_ambiguous = true -> t <> h "script" -> t <> h "textarea" ->
  guard_track_start GInSelect t = None.
Proof.
  intro Hin. pattern t. apply (one_of_Forall _ t _ Hin).
  (* the guard is evaluated on each of the ten tags; an excepted tag contradicts its hypothesis *)
  repeat constructor; intros Hs Ht; first [reflexivity | destruct Hs; reflexivity | destruct Ht; reflexivity].
Qed.
Lemma guard_refuses_in_template_in_select t d : one_of t tt_assert_not_ambiguous = true -> guard_track_start (GInTemplateInSelect d) t = None.
Proof. intro Hin. pattern t. apply (one_of_Forall _ t _ Hin). repeat constructor. Qed.
Lemma guard_refuses_in_frameset t : one_of t tt_assert_not_ambiguous = true -> t <> h "noframes" -> guard_track_start GInOrAfterFrameset t = None.
Proof.
  intro Hin. pattern t. apply (one_of_Forall _ t _ Hin).
  repeat constructor; intros Hn; first [reflexivity | destruct Hn; reflexivity].
Qed.

Definition same_ns (a b : sim) : Prop := ns_stack a = ns_stack b /\ cur_ns a = cur_ns b.
(* the two agreements below follow from the erasure us commuting with the simulator (StrictErase.v) *)
Lemma same_ns_us {s s'} : same_ns s s' -> us s = us s'.
Proof. unfold us. intros [-> ->]. reflexivity. Qed.
Lemma fb_start_strict_agrees s s' t r : same_ns s s' -> strict s' = false ->
  fb_start s t = Some r -> exists r', fb_start s' t = Some r' /\ snd r' = snd r /\ same_ns (fst r) (fst r').
Proof.
  intros Hs Hs' E. destruct r as [s1 f]. apply us_fb_start in E. rewrite (same_ns_us Hs) in E.
  destruct (fb_start s' t) as [[s1' f']|] eqn:E'; [|unfold fb_start in E'; rewrite Hs' in E'; discriminate].
  rewrite (us_fb_start E') in E. injection E as E1 E2 E3.
  exists (s1', f'). repeat split; auto.
Qed.
Lemma fb_end_strict_agrees s s' t : same_ns s s' -> snd (fb_end s t) = snd (fb_end s' t) /\ same_ns (fst (fb_end s t)) (fst (fb_end s' t)).
Proof.
  intros Hs. pose proof (us_fb_end s t) as E. rewrite (same_ns_us Hs), us_fb_end in E. injection E as E1 E2 E3.
  repeat split; auto.
Qed.
