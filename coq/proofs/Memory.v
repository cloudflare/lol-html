(* C10: memory accounting of the level-2 model (arena + open-element stack share one limiter).  First the frames of
   Rewriter.v's functions (what a reading of the controller state that ignores certain updates keeps through the handler
   loops, start/stop_matching, rw_token, rw_start_tag); Scope.v and StackTree.v use them too. *)
From LolModel Require Import Rewriter.
From LolProofs Require Import MachineFacts Frame.
From Coq Require Import Lia.
Open Scope nat_scope.

Notation rc := rewrite_controller.

Lemma fold_left_frame {S B X} (f : S -> X) (step : S -> B -> S) : (forall a b, f (step a b) = f a) ->
  forall l a, f (fold_left step l a) = f a.
Proof. intros H. induction l as [|b l IH]; intro a; cbn; [reflexivity|]. rewrite IH. apply H. Qed.

Definition fails (c : rwc) : bool := match r_fail_at c with Some k0 => k0 =? S (r_invocations c) | None => false end.
Lemma invoke_eq c : invoke c = (rlog c (S (r_invocations c)) [], fails c). Proof. reflexivity. Qed.

(* how the handler loops of rw_token end *)
Lemma fst_handlers {T R} (x : T * rwc * bool) (a : R) (b : T -> R) :
  fst (let '(t, c1, failed) := x in if failed then (c1, a) else (c1, b t)) = snd (fst x).
Proof. destruct x as [[t c1] []]; reflexivity. Qed.

Lemma snd_fst_let4 {A B C D A'} (x : A * B * C * D) (g : A -> A') : snd (fst (let '(a, b, c, d) := x in (g a, b, c, d))) = snd (fst x).
Proof. destruct x as [[[a b] c] d]. reflexivity. Qed.

(* Handlers edit tokens, not the VM's state: a reading f of the controller state that ignores the log, the handler vectors
   and the marks of the top stack item has the same value after rw_token. *)
Section HandlerFrame.
Context {X : Type} (f : rwc -> X).
Hypothesis f_log : forall c n e, f (rlog c n e) = f c.

Lemma run_element_handlers_frame v : forall k e c tok, f (snd (fst (run_element_handlers v k e c tok))) = f c.
Proof.
  induction v as [|i r IH]; intros k e c tok; cbn [run_element_handlers]; [reflexivity|].
  destruct (0 <? hi_count i); [|rewrite snd_fst_let4; apply IH].
  rewrite invoke_eq. destruct (fails c); [cbn [fst snd]; rewrite !f_log; reflexivity|].
  destruct (run_el_ops e (hi_h i)) as [e' res]. rewrite snd_fst_let4, IH, !f_log. reflexivity.
Qed.
Lemma run_tok_handlers_frame kind v : forall last t c tok, f (snd (fst (run_tok_handlers kind v last t c tok))) = f c.
Proof.
  induction v as [|[k i] r IH]; intros last t c tok; cbn [run_tok_handlers]; [reflexivity|].
  destruct (0 <? hi_count i); [|apply IH].
  rewrite invoke_eq. destruct (fails c); [cbn [fst snd]; rewrite !f_log; reflexivity|].
  destruct (if _ : bool then run_tok_ops _ _ _ else _) as [t' res]. rewrite IH, !f_log. reflexivity.
Qed.
Lemma run_user_endtag_frame k users : forall t c tok, f (snd (fst (run_user_endtag k users t c tok))) = f c.
Proof.
  induction users as [|ops r IH]; intros t c tok; cbn [run_user_endtag]; [reflexivity|].
  rewrite invoke_eq. destruct (fails c); [cbn [fst snd]|rewrite IH]; rewrite !f_log; reflexivity.
Qed.
Lemma run_endtag_items_frame items : forall t c tok, f (snd (fst (run_endtag_items items t c tok))) = f c.
Proof.
  induction items as [|[k i] r IH]; intros t c tok; cbn [run_endtag_items]; [reflexivity|].
  destruct (0 <? hi_count i); [|apply IH].
  match goal with |- context [run_user_endtag ?a ?b ?t' c tok] =>
    pose proof (run_user_endtag_frame a b t' c tok) as H; destruct (run_user_endtag a b t' c tok) as [[t3 c1] failed] end.
  cbn [fst snd] in H. destruct failed; [exact H|]. rewrite IH. exact H.
Qed.

Hypothesis f_handlers : forall c et el rem,
  f (rset_handlers c (r_doctype c) (r_comment c) (r_text c) et el (r_end c) (r_next_chc c) rem) = f c.
Hypothesis f_top : forall c g, (forall d, ed_matched (g d) = ed_matched d) ->
  f (rset_vm c (set_top_data (r_stack c) g) (r_vm_charged c)) = f c.

Lemma rw_token_frame c tok : f (fst (rw_token c tok)) = f c.
Proof.
  destruct tok; cbn [rw_token]; try (rewrite fst_handlers; apply run_tok_handlers_frame).
  - unfold handle_start_tag.
    match goal with |- context [run_element_handlers ?v 0 ?e c ?tk] =>
      pose proof (run_element_handlers_frame v 0 e c tk) as H; destruct (run_element_handlers v 0 e c tk) as [[[elv e1] c1] failed] end.
    cbn [fst snd] in H. rewrite <- H.
    set (c2 := rset_handlers c1 _ _ _ _ elv _ _ _). assert (H2 : f c2 = f c1) by apply f_handlers.
    destruct failed; cbn [fst]; [exact H2|].
    (* r_next_chc c2 is read again below, so the test on it is split without rewriting it *)
    assert (Hif : forall (b : bool) x, f x = f c1 -> f (if b then x else c2) = f c1) by (intros [|] x Hx; [exact Hx | exact H2]).
    apply Hif. clear Hif. destruct (r_prog c2); [|exact H2]. destruct (vs_items (r_stack c2)); [exact H2|].
    rewrite <- H2.
    (* the stack is only touched through set_top_data: not at all, once, or twice *)
    set (s1 := set_top_data (r_stack c2) (fun d => mkED (ed_matched d) (ed_end_handler d) true)).
    assert (H3 : f (rset_vm c2 s1 (r_vm_charged c2)) = f c2) by (apply f_top; reflexivity).
    destruct (el_remove_content e1); match goal with |- context [if ?n then _ else _] => destruct n end;
      (etransitivity; [exact (f_handlers (rset_vm c2 _ _) _ _ _)|]).
    + rewrite <- H3. apply (f_top (rset_vm c2 s1 (r_vm_charged c2))). reflexivity.
    + exact H3.
    + apply f_top. reflexivity.
    + reflexivity.
  - unfold handle_end_tag_token. destruct (first_active (r_endtag c) 0); cbn [fst]; [|reflexivity].
    rewrite fst_handlers, run_endtag_items_frame. apply f_handlers.
Qed.
End HandlerFrame.

Section MatchingFrame.
Context {X : Type} (f : rwc -> X).
Hypothesis f_handlers : forall c dt cm tx et el en chc rem, f (rset_handlers c dt cm tx et el en chc rem) = f c.
Lemma start_matching_frame ids c wc : f (start_matching c ids wc) = f c.
Proof. apply fold_left_frame. intros a id. destruct (nth_error (r_locators a) id); [apply f_handlers | reflexivity]. Qed.
Lemma stop_matching_frame c d : f (stop_matching c d) = f c.
Proof.
  unfold stop_matching. rewrite f_handlers. apply fold_left_frame.
  intros a id. destruct (nth_error (r_locators a) id); [apply f_handlers | reflexivity].
Qed.
Lemma fold_stop_frame l c : f (fold_left stop_matching l c) = f c.
Proof. apply fold_left_frame, stop_matching_frame. Qed.
End MatchingFrame.

Section VmFrame.
Variable P : rwc -> Prop.
Variable ext : N.
Hypothesis P_child : forall c ln, P c -> P (rset_vm c (stack_add_child (r_stack c) ln) (r_vm_charged c)).
Hypothesis P_pending : forall c p, P c -> P (rset_pending c p).
Hypothesis P_finish : forall c ec c' f, P c -> finish_exec c ext ec = (c', FOk f) -> P c'.

Lemma rw_start_tag_P c n h x c' r : P c -> rw_start_tag c ext n h x = (c', r) -> match r with SErr _ => True | _ => P c' end.
Proof.
  (* the error code 900 is a unary numeral that every step below would walk through again *)
  intros Hc. unfold rw_start_tag. generalize (ContentHandlerError 900). intros e900.
  destruct (r_prog c) as [prog|]; [|intros [= <- <-]; exact Hc].
  specialize (P_child c (lname_of n h) Hc) as H1. set (c1 := rset_vm c _ _) in *.
  destruct (get_stack_directive (lname_of n h) x); [|intros [= <- <-]; apply P_pending, H1|].
  (* the two other directives differ only in the context handed to the VM *)
  all: destruct (exec_without_attrs _ _ _) as [ec'| |]; [|intros [= <- <-]; apply P_pending, H1|intros [= <- <-]; exact I].
  all: destruct (finish_exec c1 ext ec') as [c2 [f|e]] eqn:Ef; intros [= <- <-]; [exact (P_finish _ _ _ _ H1 Ef) | exact I].
Qed.
Lemma rw_aux_info_P c a sc c' f : P c -> rw_aux_info c ext a sc = (c', FOk f) -> P c'.
Proof.
  intros Hc. unfold rw_aux_info. generalize (ContentHandlerError 900), (ContentHandlerError 901). intros e900 e901.
  destruct (r_prog c) as [prog|]; [|discriminate].
  destruct (r_pending c) as [[ec how]|]; [|discriminate].
  destruct (match how with Some _ => _ | None => _ end) as [ec'|]; [|discriminate].
  apply P_finish, P_pending, Hc.
Qed.
End VmFrame.

(* fields of the controller state that only the VM execution touches *)
Definition mem_sig (c : rwc) : N * N * N := (c.(r_vm_charged), c.(r_max), c.(r_item_size)).

Lemma rlog_sig c n e : mem_sig (rlog c n e) = mem_sig c. Proof. reflexivity. Qed.
Lemma rset_handlers_sig c a b d e f g h i : mem_sig (rset_handlers c a b d e f g h i) = mem_sig c. Proof. reflexivity. Qed.
Lemma rset_pending_sig c p : mem_sig (rset_pending c p) = mem_sig c. Proof. reflexivity. Qed.
Lemma invoke_sig c : mem_sig (fst (invoke c)) = mem_sig c. Proof. reflexivity. Qed.

Lemma rw_token_sig c tok : mem_sig (fst (rw_token c tok)) = mem_sig c.
Proof. apply rw_token_frame; reflexivity. Qed.
Lemma rw_end_tag_sig c n h : mem_sig (fst (rw_end_tag c n h)) = mem_sig c.
Proof.
  unfold rw_end_tag. destruct (r_prog c); [|reflexivity].
  destruct (stack_pop_up_to (r_stack c) (lname_of n h)) as [s' popped]. cbn [fst]. rewrite fold_stop_frame; reflexivity.
Qed.

Definition within (ext : N) (c : rwc) (M : N) : Prop := (ext + r_vm_charged c <= M)%N /\ r_max c = M.

Lemma within_sig ext c c' M : mem_sig c' = mem_sig c -> within ext c M -> within ext c' M.
Proof. unfold mem_sig, within. intros [= -> -> _] H. exact H. Qed.

Lemma stack_push_within s it isz mi other mx s' ch :
  stack_push s it isz mi other mx = (s', ch, true) -> (other <= mx)%N -> (other + ch <= mx)%N.
Proof.
  unfold stack_push. destruct (length (vs_items s) <? vs_cap s); [intros [= _ <-]; rewrite N.add_0_r; exact (fun H => H)|].
  match goal with |- context [(?a <=? mx)%N] => destruct (N.leb_spec a mx) as [Hle|] end; intros [= _ <-] _. exact Hle.
Qed.
Lemma finish_exec_within c ext ec M c' f :
  within ext c M -> finish_exec c ext ec = (c', FOk f) -> within ext c' M.
Proof.
  intros Hw. unfold finish_exec. set (c1 := start_matching c _ _).
  apply (within_sig ext c c1 M (start_matching_frame mem_sig rset_handlers_sig _ c _)) in Hw.
  destruct (ec_with_content ec); [|intros [= <- _]; exact Hw].
  destruct Hw as [Hu Hm]. destruct (stack_push _ _ _ _ _ _) as [[s' ch] [|]] eqn:Ep; intros [= <- _].
  apply stack_push_within in Ep; [|rewrite Hm; exact Hu].
  split; [|exact Hm]. cbn [rset_vm r_vm_charged]. rewrite N.add_assoc, <- Hm. exact Ep.
Qed.

(* within reads r_vm_charged and r_max only: counting a child and parking a request keep it by computation *)
Lemma rw_start_tag_within M c ext n h x c' r :
  within ext c M -> rw_start_tag c ext n h x = (c', r) ->
  match r with SErr _ => True | _ => within ext c' M end.
Proof.
  exact (rw_start_tag_P (fun c => within ext c M) ext (fun _ _ H => H) (fun _ _ H => H)
           (fun c ec => finish_exec_within c ext ec M) c n h x c' r).
Qed.
Lemma rw_aux_info_within M c ext a sc c' f :
  within ext c M -> rw_aux_info c ext a sc = (c', FOk f) -> within ext c' M.
Proof.
  exact (rw_aux_info_P (fun c => within ext c M) ext (fun _ _ H => H) (fun c ec => finish_exec_within c ext ec M) c a sc c' f).
Qed.
Lemma rw_end_tag_within M c ext n h c' f : within ext c M -> rw_end_tag c n h = (c', f) -> within ext c' M.
Proof. intros H E. refine (within_sig ext c c' M _ H). rewrite <- (rw_end_tag_sig c n h), E. reflexivity. Qed.
Lemma rw_token_within M c ext t c' ps : within ext c M -> rw_token c t = (c', OOk ps) -> within ext c' M.
Proof. intros H E. refine (within_sig ext c c' M _ H). rewrite <- (rw_token_sig c t), E. reflexivity. Qed.

Definition arena_wf (a : arena) : Prop := length (ar_data a) <= ar_cap a /\ (N.of_nat (ar_cap a) <= ar_charged a)%N.
Definition Minv (s : @stream rwc) : Prop :=
  let c := d_ctl (c_disp (s_ctx s)) in
  arena_wf (s_arena s)
  /\ (ar_charged (s_arena s) + r_vm_charged c <= s_max_mem s)%N
  /\ r_max c = s_max_mem s.

Lemma arena_append_ok {a other M slice a'} :
  arena_wf a -> (ar_charged a + other <= M)%N -> arena_append a other M slice = (a', true) ->
  arena_wf a' /\ (ar_charged a' + other <= M)%N.
Proof.
  intros [H1 H2] Hu. unfold arena_append, arena_wf.
  destruct (Nat.ltb_spec (ar_cap a - length (ar_data a)) (length slice)).
  - unfold limiter_ok. match goal with |- context [(?x <=? M)%N] => destruct (N.leb_spec x M) end; intros [= <-].
    cbn. rewrite app_length. lia.
  - intros [= <-]. cbn. rewrite app_length. lia.
Qed.
Lemma arena_shift_wf {a} n : arena_wf a -> arena_wf (arena_shift a n).
Proof. intros [H1 H2]. split; cbn; [rewrite skipn_length; lia | exact H2]. Qed.
Lemma arena_clear_wf {a} : arena_wf a -> arena_wf (mkArena (ar_cap a) [] (ar_charged a)).
Proof. intros [H1 H2]. split; cbn; [lia | exact H2]. Qed.

Lemma write_ok_limit M s data s' : Minv s /\ s_max_mem s = M -> write rc s data = (s', COk) -> Minv s' /\ s_max_mem s' = M.
Proof.
  intros [(Hwf & Hu & Hm) <-] Ew.
  destruct (write_ok rc _ (rw_start_tag_within (s_max_mem s)) (rw_aux_info_within _) (rw_end_tag_within _) (rw_token_within _) s data s' Ew)
    as (ar1 & n & Ea & Hc & Hmm & Har).
  assert (arena_wf ar1 /\ (ar_charged ar1 + r_vm_charged (d_ctl (sdisp s)) <= s_max_mem s)%N) as [Hwf1 Hu1].
  { destruct (s_has_buf s); [exact (arena_append_ok Hwf Hu Ea) | injection Ea as <-; split; assumption]. }
  destruct (Hc (conj Hu1 Hm)) as [Hc1 Hc2]. split; [|exact Hmm]. unfold Minv. rewrite Hmm.
  destruct Har as [-> | [Ei | ->]].
  - exact (conj (arena_shift_wf n Hwf1) (conj Hc1 Hc2)).
  - destruct (arena_append_ok (arena_clear_wf Hwf1) Hc1 Ei) as [Hwf2 Hu2]. exact (conj Hwf2 (conj Hu2 Hc2)).
  - exact (conj Hwf1 (conj Hc1 Hc2)).
Qed.
Theorem write_keeps_limit s data s' :
  Minv s -> write rc s data = (s', COk) -> Minv s'.
Proof. intros H Ew. exact (proj1 (write_ok_limit _ s data s' (conj H eq_refl) Ew)). Qed.

Definition accounted (s : @stream rwc) : N := (ar_charged (s_arena s) + r_vm_charged (d_ctl (c_disp (s_ctx s))))%N.
Definition retained (s : @stream rwc) : nat := if s_has_buf s then length (ar_data (s_arena s)) else 0.
Lemma Minv_bounds s : Minv s -> (accounted s <= s_max_mem s)%N /\ (N.of_nat (retained s) <= s_max_mem s)%N.
Proof.
  intros ([H1 H2] & Hu & _). split; [exact Hu|]. unfold retained. destruct (s_has_buf s); lia.
Qed.

Lemma new_stream_Minv cfg c0 :
  prealloc_fits rc cfg c0 = true -> r_max c0 = st_max_mem cfg -> Minv (new_stream rc cfg c0).
Proof.
  intros Hf Hm. unfold Minv, new_stream. cbn [s_arena s_ctx c_disp d_ctl s_max_mem]. rewrite Hf. apply N.leb_le in Hf.
  split; [split; [apply Nat.le_0_l | apply N.le_refl]|]. split; [rewrite N.add_comm; exact Hf | exact Hm].
Qed.

Theorem limit_holds_after_successful_writes cfg c0 chunks :
  prealloc_fits rc cfg c0 = true -> r_max c0 = st_max_mem cfg ->
  forall r res,
    api_run rc (new_rewriter rc cfg c0) (map Write chunks) = (r, res) ->
    Forall (fun x => x = ROk) res ->
    (accounted (rw_stream r) <= st_max_mem cfg)%N /\ (N.of_nat (retained (rw_stream r)) <= st_max_mem cfg)%N.
Proof.
  intros Hf Hm r res Er Hall.
  destruct (successful_writes_preserve rc _ (write_ok_limit (st_max_mem cfg)) chunks (new_rewriter rc cfg c0)
              (conj (new_stream_Minv cfg c0 Hf Hm) eq_refl) eq_refl eq_refl r res Er Hall) as [Hi Hmm].
  rewrite <- Hmm. apply Minv_bounds, Hi.
Qed.
