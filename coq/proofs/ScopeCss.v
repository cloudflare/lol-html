(* C05 + C04 at the controller: after ANY sequence of start/end tags through the rewriter's controller, a selector-scoped
   text / comment handler is active exactly when some open element of the tag-induced tree is matched (CSS semantics) by a
   selector that owns the handler. *)
From LolModel Require Import Rewriter.
From LolSpec Require Import CssSem.
From LolProofs Require Import StackTree AstSem Frontier VmStack VmRun Scope.
Import ListNotations.
Open Scope nat_scope.

Section Counts.
Context {locs : list locator} {ncm ntx : nat} (locs_good : locs_ok locs ncm ntx) {bcm btx : nat -> nat}.
Notation SInv := (SInv locs ncm ntx bcm btx).
Lemma vm_on_start_SInv {c ext name n avs sc c'} : SInv c -> vm_on_start c ext name n avs sc = Some c' -> SInv c'.
Proof.
  intros Hi. unfold vm_on_start. destruct (rw_start_tag c ext name (hash_of name) n) as [c1 r] eqn:E1.
  pose proof (rw_start_tag_SInv locs_good Hi E1) as H1.
  destruct r as [f| |e]; [intros [= <-]; exact H1 | | discriminate].
  destruct (rw_aux_info c1 ext avs sc) as [c2 [f|e]] eqn:E2; [|discriminate].
  intros [= <-]. exact (rw_aux_info_SInv locs_good H1 E2).
Qed.
Lemma vm_run_SInv ext : forall ops c c', SInv c -> vm_run c ext ops = Some c' -> SInv c'.
Proof.
  induction ops as [|[name n avs sc|name] r IH]; intros c c' Hi Hrun; cbn [vm_run] in Hrun.
  - injection Hrun as <-. exact Hi.
  - destruct (vm_on_start c ext name n avs sc) as [c1|] eqn:E; [|discriminate]. exact (IH _ _ (vm_on_start_SInv Hi E) Hrun).
  - destruct (rw_end_tag c name (hash_of name)) as [c1 f] eqn:E. cbn [fst] in Hrun.
    exact (IH _ _ (rw_end_tag_SInv Hi E) Hrun).
Qed.
End Counts.

Lemma firstn_S_nth {A} (l : list A) : forall j e, nth_error l j = Some e -> firstn (S j) l = firstn j l ++ [e].
Proof. induction l as [|x l IH]; intros [|j] e E; cbn in *; try discriminate; [injection E as ->; reflexivity | rewrite (IH j e E); reflexivity]. Qed.
Lemma SI_nth prog : forall items anc JH j, SI prog items anc JH ->
  match nth_error items j, nth_error anc j with
  | Some it, Some e => forall x, In x (ed_matched (si_data it)) <-> In x (ids_at e (fold_left fstep (firstn j anc) JH))
  | None, None => True
  | _, _ => False
  end.
Proof.
  induction items as [|y items IH]; intros [|a anc] JH j H; cbn [SI] in H; try contradiction; [destruct j; exact I|].
  destruct H as [[_ [_ Hm]] H2]. destruct j as [|j]; cbn [nth_error firstn fold_left]; [exact Hm | exact (IH anc (fstep JH a) j H2)].
Qed.

Theorem scoped_handlers_follow_css sels docs bail fa isz mx ext ops c :
  sels <> [] ->
  never_wraps_a (mkTree [] []) ops ->
  vm_run (new_rwc sels docs bail fa isz mx) ext ops = Some c ->
  let c0 := new_rwc sels docs bail fa isz mx in
  let chain := chain_of (tree_run_a (mkTree [] []) ops) in
  (forall j, j < length chain -> Forall (fun sel => sel_ok sel (firstn (S j) chain)) (map sh_selector sels)) ->
  forall k l, nth_error (r_locators c0) k = Some l ->
  let opened (own : nat -> bool) := exists j e id sh, nth_error chain j = Some e /\ own id = true /\ nth_error sels id = Some sh /\
                                     selector_matches (sh_selector sh) e (rev (firstn j chain)) = true in
  (forall i, lc_cm l = Some i -> (0 < cnt (r_comment c) i <-> opened (owns (r_locators c0) lc_cm i))) /\
  (forall i, lc_tx l = Some i -> (0 < cnt (r_text c) i <-> opened (owns (r_locators c0) lc_tx i))).
Proof.
  intros Hne Hw Hrun c0 chain Hok k l El opened.
  destruct (new_rwc_SInv sels docs bail fa isz mx) as [H0 Hlok]. fold c0 in H0, Hlok.
  pose proof (vm_run_SInv Hlok ext ops c0 c H0 Hrun) as (_ & [_ Hc] & [_ Ht]).
  destruct (new_rwc_selector_scoped_inactive sels docs bail fa isz mx k l El) as [Zc Zt]. fold c0 in Zc, Zt.
  pose proof (run_keeps_inv _ _ ext ops c0 (mkTree [] []) c (initial_state_inv sels docs bail fa isz mx Hne) Hw Hrun) as [_ _ _ Hsi _].
  fold chain in Hsi.
  (* the j-th stack item holds the ids of the selectors that match the j-th open element *)
  assert (Hat : forall j, match nth_error (vs_items (r_stack c)) j, nth_error chain j with
            | Some it, Some e => forall id, In id (ed_matched (si_data it)) <->
                exists sh, nth_error sels id = Some sh /\ selector_matches (sh_selector sh) e (rev (firstn j chain)) = true
            | None, None => True
            | _, _ => False
            end).
  { intros j. pose proof (SI_nth _ _ _ _ j Hsi) as H.
    destruct (nth_error (vs_items (r_stack c)) j) as [it|], (nth_error chain j) as [e|] eqn:Ee; try exact H. intros id.
    assert (Hk : j < length chain) by (apply nth_error_Some; rewrite Ee; discriminate).
    apply Hok in Hk. rewrite (firstn_S_nth _ _ _ Ee), <- (rev_involutive (firstn j chain)) in Hk.
    apply (build_ast_of_handlers _ _ _ id) in Hk. rewrite rev_involutive in Hk. rewrite H, <- den_any_is_frontier. exact Hk. }
  assert (Hids : forall own, (exists it id, In it (vs_items (r_stack c)) /\ In id (ed_matched (si_data it)) /\ own id = true) <-> opened own).
  { intros own. unfold opened. split.
    - intros (it & id & Hit & Hid & Ho). apply In_nth_error in Hit as [j Ej]. specialize (Hat j). rewrite Ej in Hat.
      destruct (nth_error chain j) as [e|] eqn:Ee; [|contradiction]. apply Hat in Hid as [sh [Esh Hm]]. exists j, e, id, sh. auto.
    - intros (j & e & id & sh & Ee & Ho & Esh & Hm). specialize (Hat j). rewrite Ee in Hat.
      destruct (nth_error (vs_items (r_stack c)) j) as [it|] eqn:Ej; [|contradiction].
      exists it, id. split; [eapply nth_error_In; exact Ej|]. split; [apply Hat; exists sh; auto | exact Ho]. }
  split; intros i Ei.
  - rewrite Hc, (Zc i Ei), <- Hids. apply uses_all_ids_pos.
  - rewrite Ht, (Zt i Ei), <- Hids. apply uses_all_ids_pos.
Qed.
