(* C04: what an AST of selectors denotes on a chain of elements; Ast::add_selector (with prefix sharing) adds exactly the
   selector's denotation. *)
From LolModel Require Import Selectors.
From LolSpec Require Import CssSem.
From LolProofs Require Import CssPred.
Import ListNotations.
Open Scope nat_scope.

(* holds: CssPred.vm_predicate, an instruction's test on an element of the tree (pred_b: its conjunction form, inside
   CssPred.v); n_pred: Selectors.node_pred *)
Definition holds (e : elem) (p : predicate) : bool := vm_predicate e p.
Definition n_pred (n : ast_node) := match n with Node p _ _ _ => p end.
Definition n_children (n : ast_node) := match n with Node _ c _ _ => c end.
Definition n_desc (n : ast_node) := match n with Node _ _ d _ => d end.
Definition n_ids (n : ast_node) := match n with Node _ _ _ i => i end.

(* chain: the ancestors of the element and the element itself, outermost first.
   den bs chain: ids reported at the LAST element when the nodes bs are candidates for the FIRST element of the chain. *)
Fixpoint den (bs : list ast_node) (chain : list elem) {struct chain} : list nat :=
  match chain with
  | [] => []
  | e :: rest =>
      flat_map (fun b =>
        if holds e (n_pred b) then
          match rest with
          | [] => n_ids b
          | _ => den (n_children b) rest ++
                 (fix suffixes (c : list elem) : list nat := match c with [] => [] | _ :: c' => den (n_desc b) c ++ suffixes c' end) rest
          end
        else []) bs
  end.

Definition suffixes_den (ds : list ast_node) : list elem -> list nat :=
  fix suffixes (c : list elem) : list nat := match c with [] => [] | _ :: c' => den ds c ++ suffixes c' end.
(* den_any = suffixes_den: the AST's roots are candidates at every element of the chain *)
Definition den_any (bs : list ast_node) (chain : list elem) : list nat := suffixes_den bs chain.

Lemma den_cons b bs e rest : den (b :: bs) (e :: rest) =
  (if holds e (n_pred b) then match rest with [] => n_ids b | _ => den (n_children b) rest ++ suffixes_den (n_desc b) rest end else []) ++ den bs (e :: rest).
Proof. reflexivity. Qed.
Lemma den_nil_chain bs : den bs [] = [].
Proof. destruct bs; reflexivity. Qed.
Lemma den_nil chain : den [] chain = [].
Proof. destruct chain; reflexivity. Qed.
Lemma den_app a b chain : den (a ++ b) chain = den a chain ++ den b chain.
Proof. destruct chain as [|e rest]; [rewrite !den_nil_chain; reflexivity|]. cbn [den]. apply flat_map_app. Qed.
Lemma den_cons_app b bs chain : den (b :: bs) chain = den [b] chain ++ den bs chain.
Proof. exact (den_app [b] bs chain). Qed.
Lemma suffixes_nil chain : suffixes_den [] chain = [].
Proof. induction chain as [|e r IH]; [reflexivity|]. cbn [suffixes_den]. rewrite den_nil. exact IH. Qed.
Lemma den_leaf p chain : den [Node p [] [] []] chain = [].
Proof.
  destruct chain as [|e rest]; [reflexivity|]. rewrite den_cons, den_nil, app_nil_r. cbn [n_pred n_ids n_children n_desc].
  destruct (holds e p); [|reflexivity]. destruct rest; [reflexivity|]. apply suffixes_nil.
Qed.

(* the complex selector c path read left to right along the chain: c at the first element, the last compound at the last
   (sel_child); the same from some element of the chain on (sel_sfx) *)
Fixpoint sel_child (c : compound) (path : list (comb * compound)) (chain : list elem) {struct chain} : bool :=
  match chain with
  | [] => false
  | e :: rest =>
      compound_matches e c &&
      match path with
      | [] => match rest with [] => true | _ => false end
      | (Child, c') :: p' => sel_child c' p' rest
      | (Descendant, c') :: p' => (fix sfx (s : list elem) : bool := match s with [] => false | _ :: s' => sel_child c' p' s || sfx s' end) rest
      end
  end.
Definition sel_sfx (c : compound) (path : list (comb * compound)) : list elem -> bool :=
  fix sfx (s : list elem) : bool := match s with [] => false | _ :: s' => sel_child c path s || sfx s' end.

Lemma list_eqb_eq {A} {f : A -> A -> bool} : (forall x y, f x y = true -> x = y) -> forall a b, list_eqb f a b = true -> a = b.
Proof.
  intros Hf. induction a as [|x a IH]; intros [|y b] H; try discriminate; [reflexivity|].
  cbn in H. apply andb_true_iff in H. destruct H as [H1 H2]. f_equal; [exact (Hf _ _ H1) | exact (IH _ H2)].
Qed.
Lemma pair_eqb_eq {A B} {f : A -> A -> bool} {g : B -> B -> bool} :
  (forall a a', f a a' = true -> a = a') -> (forall b b', g b b' = true -> b = b') ->
  forall x y : A * B, f (fst x) (fst y) && g (snd x) (snd y) = true -> x = y.
Proof. intros Hf Hg [a b] [a' b'] H. apply andb_true_iff in H. destruct H as [H1 H2]. f_equal; [exact (Hf _ _ H1) | exact (Hg _ _ H2)]. Qed.
Lemma tag_expr_eqb_eq x y : tag_expr_eqb x y = true -> x = y.
Proof.
  destruct x, y; try discriminate; try reflexivity; cbn [tag_expr_eqb]; intros H.
  1: f_equal; apply bytes_eqb_eq; exact H.
  all: apply andb_true_iff in H; destruct H as [H1 H2]; apply Z.eqb_eq in H1, H2; subst; reflexivity.
Qed.
Lemma cs_eqb_eq x y : cs_eqb x y = true -> x = y.
Proof. destruct x, y; try discriminate; reflexivity. Qed.
Lemma op_eqb_eq x y : op_eqb x y = true -> x = y.
Proof. destruct x, y; try discriminate; reflexivity. Qed.
Lemma attr_expr_eqb_eq x y : attr_expr_eqb x y = true -> x = y.
Proof.
  destruct x, y; try discriminate; cbn [attr_expr_eqb]; intros H; try (f_equal; apply bytes_eqb_eq; exact H).
  rewrite !andb_true_iff in H. destruct H as [[[Hn Hv] Hc] Ho].
  apply bytes_eqb_eq in Hn, Hv. apply cs_eqb_eq in Hc. apply op_eqb_eq in Ho. subst. reflexivity.
Qed.
Lemma pred_eqb_eq q p : pred_eqb q p = true -> q = p.
Proof.
  unfold pred_eqb. intros H. apply andb_true_iff in H. destruct H as [H1 H2].
  destruct q as [qt qa], p as [pt pa]. cbn [p_tag p_attr] in *. f_equal.
  - exact (list_eqb_eq (pair_eqb_eq tag_expr_eqb_eq Bool.eqb_prop) _ _ H1).
  - exact (list_eqb_eq (pair_eqb_eq attr_expr_eqb_eq Bool.eqb_prop) _ _ H2).
Qed.

(* Ast::host_expressions (host) taken apart: the search for a node with the same predicate (host_go), and what is done to the
   node found or appended (upd_node) *)
Definition upd_node (f : nat) (path : list (comb * compound)) (id : nat) (q : predicate) ch ds ids : ast_node :=
  match path with
  | [] => Node q ch ds (insert_sorted id ids)
  | (Child, c) :: rest => Node q (host f (compound_predicate c) rest id ch) ds ids
  | (Descendant, c) :: rest => Node q ch (host f (compound_predicate c) rest id ds) ids
  end.
Fixpoint host_go (f : nat) (p : predicate) (path : list (comb * compound)) (id : nat) (bs : list ast_node) : list ast_node * bool :=
  match bs with
  | [] => ([], false)
  | Node q ch ds ids :: r =>
      if pred_eqb q p then (upd_node f path id q ch ds ids :: r, true)
      else let (r', found) := host_go f p path id r in (Node q ch ds ids :: r', found)
  end.
Lemma host_unfold f p path id bs :
  host (S f) p path id bs = let (bs', found) := host_go f p path id bs in if found then bs' else bs ++ [upd_node f path id p [] [] []].
Proof.
  cbn [host].
  (* host_go is the local fixpoint of host *)
  match goal with |- (let (_, _) := ?go bs in _) = _ => assert (E : forall l, go l = host_go f p path id l) end.
  { induction l as [|[q ch ds ids] r IH]; [reflexivity|]. cbn [host_go]. destruct (pred_eqb q p); [reflexivity|]. rewrite IH. reflexivity. }
  rewrite E. destruct (host_go f p path id bs) as [bs' [|]]; [reflexivity|].
  destruct path as [|[[|] c] rest]; reflexivity.
Qed.

Lemma insert_sorted_in x l i : In i (insert_sorted x l) <-> i = x \/ In i l.
Proof.
  assert (Hc : forall l', In i (x :: l') <-> i = x \/ In i l')
    by (intros l'; cbn [In]; split; (intros [H|H]; [left; symmetry; exact H | right; exact H])).
  induction l as [|y r IH]; cbn [insert_sorted]; [apply Hc|].
  destruct (x <? y); [apply Hc|]. destruct (Nat.eqb_spec x y) as [->|Hne].
  - split; [right; assumption | intros [->|H]; [left; reflexivity | exact H]].
  - cbn [In]. rewrite IH. split; (intros [H|[H|H]]; auto).
Qed.

Definition adds (id : nat) (b : bool) (l l' : list nat) : Prop := forall i, In i l' <-> In i l \/ (i = id /\ b = true).
Lemma adds_refl id l : adds id false l l.
Proof. intros i. split; [left; assumption | intros [H|[_ H]]; [exact H | discriminate]]. Qed.
Lemma adds_app {id b1 b2 l1 l1' l2 l2'} : adds id b1 l1 l1' -> adds id b2 l2 l2' -> adds id (b1 || b2) (l1 ++ l2) (l1' ++ l2').
Proof.
  intros H1 H2 i. rewrite !in_app_iff, (H1 i), (H2 i), orb_true_iff.
  split; [intros [[H|[Hi H]]|[H|[Hi H]]] | intros [[H|H]|[Hi [H|H]]]]; auto.
Qed.
Lemma adds_app_l id b l1 l1' l2 : adds id b l1 l1' -> adds id b (l1 ++ l2) (l1' ++ l2).
Proof. intros H. rewrite <- (orb_false_r b). exact (adds_app H (adds_refl id l2)). Qed.
Lemma adds_app_r id b l1 l2 l2' : adds id b l2 l2' -> adds id b (l1 ++ l2) (l1 ++ l2').
Proof. exact (adds_app (adds_refl id l1)). Qed.
Lemma adds_trans id b1 b2 l l' l'' : adds id b1 l l' -> adds id b2 l' l'' -> adds id (b1 || b2) l l''.
Proof.
  intros H1 H2 i. rewrite (H2 i), (H1 i), orb_true_iff.
  split; [intros [[H|[Hi H]]|[Hi H]] | intros [H|[Hi [H|H]]]]; auto.
Qed.

Definition all_ok (c : compound) (path : list (comb * compound)) (chain : list elem) : Prop :=
  Forall (fun e => compound_ok e c /\ Forall (fun kc => compound_ok e (snd kc)) path) chain.
Lemma all_ok_tail {c path e rest} : all_ok c path (e :: rest) -> all_ok c path rest.
Proof. apply Forall_inv_tail. Qed.
Lemma all_ok_step {c k c' p' chain} : all_ok c ((k, c') :: p') chain -> all_ok c' p' chain.
Proof. apply Forall_impl. intros e [_ H]. exact (conj (Forall_inv H) (Forall_inv_tail H)). Qed.
Lemma all_ok_suffix c path : forall chain s, all_ok c path chain -> (exists pre, chain = pre ++ s) -> all_ok c path s.
Proof. intros chain s H [pre ->]. unfold all_ok in *. apply Forall_app in H. apply H. Qed.

Definition host_ok (f : nat) : Prop :=
  forall c path id bs chain, length path < f -> all_ok c path chain ->
  adds id (sel_child c path chain) (den bs chain) (den (host f (compound_predicate c) path id bs) chain).

Lemma suffixes_host f c path id ds : host_ok f -> length path < f -> forall s, all_ok c path s ->
  adds id (sel_sfx c path s) (suffixes_den ds s) (suffixes_den (host f (compound_predicate c) path id ds) s).
Proof.
  intros Hf Hl. induction s as [|e r IH]; intros Hok; [apply adds_refl|]. cbn [suffixes_den sel_sfx].
  apply adds_app; [apply Hf; assumption | apply IH, (all_ok_tail Hok)].
Qed.

Lemma upd_node_den f c path id ch ds ids chain : host_ok f -> length path <= f -> all_ok c path chain ->
  adds id (sel_child c path chain) (den [Node (compound_predicate c) ch ds ids] chain) (den [upd_node f path id (compound_predicate c) ch ds ids] chain).
Proof.
  intros Hf Hl Hok. destruct chain as [|e rest]; [apply adds_refl|].
  assert (Hh : holds e (compound_predicate c) = compound_matches e c).
  { apply predicate_decides_compound, (Forall_inv Hok). }
  assert (Hp : forall n, n_pred (upd_node f path id (compound_predicate c) ch ds n) = compound_predicate c)
    by (intros n; destruct path as [|[[|] c'] p']; reflexivity).
  rewrite !den_cons, !den_nil, !app_nil_r. cbn [sel_child]. rewrite Hp. cbn [n_pred]. rewrite Hh.
  destruct (compound_matches e c); [|apply adds_refl].
  apply all_ok_tail in Hok.
  destruct path as [|[[|] c'] p']; cbn [upd_node n_ids n_children n_desc]; (destruct rest as [|e2 r2]; [|cbn [length] in Hl]);
    try apply adds_refl.
  - intros i. rewrite insert_sorted_in. split; [intros [H|H] | intros [H|[H _]]]; auto.
  - apply adds_app_l, Hf; [exact Hl | exact (all_ok_step Hok)].
  - apply adds_app_r, suffixes_host; [exact Hf | exact Hl | exact (all_ok_step Hok)].
Qed.

Lemma host_go_den f c path id : host_ok f -> length path <= f -> forall chain, all_ok c path chain -> forall bs bs',
  host_go f (compound_predicate c) path id bs = (bs', true) -> adds id (sel_child c path chain) (den bs chain) (den bs' chain).
Proof.
  intros Hf Hl chain Hok. induction bs as [|[q ch ds ids] r IH]; intros bs' E; cbn [host_go] in E; [discriminate|].
  destruct (pred_eqb q (compound_predicate c)) eqn:Eq.
  - injection E as <-. apply pred_eqb_eq in Eq. subst q. rewrite (den_cons_app _ r), (den_cons_app _ r).
    apply adds_app_l, upd_node_den; assumption.
  - destruct (host_go f (compound_predicate c) path id r) as [r' found]. injection E as <- ->.
    rewrite (den_cons_app _ r), (den_cons_app _ r'). apply adds_app_r, (IH _ eq_refl).
Qed.

Theorem host_denotes : forall f, host_ok f.
Proof.
  induction f as [|f IH]; intros c path id bs chain Hl Hok; [destruct (Nat.nlt_0_r _ Hl)|]. apply le_S_n in Hl.
  rewrite host_unfold. destruct (host_go f (compound_predicate c) path id bs) as [bs' [|]] eqn:E;
    [exact (host_go_den f c path id IH Hl chain Hok bs bs' E)|].
  pose proof (upd_node_den f c path id [] [] [] chain IH Hl Hok) as Hn. rewrite den_leaf in Hn.
  apply (adds_app_r _ _ (den bs chain)) in Hn. rewrite app_nil_r in Hn. rewrite den_app. exact Hn.
Qed.

Definition sel_ok (sel : selector) (chain : list elem) : Prop := Forall (fun cx => all_ok (cx_first cx) (cx_rest cx) chain) sel.
Definition sel_matches_lr (sel : selector) (chain : list elem) : bool := existsb (fun cx => sel_sfx (cx_first cx) (cx_rest cx) chain) sel.

Theorem add_selector_denotes sel id chain : sel_ok sel chain -> forall root,
  adds id (sel_matches_lr sel chain) (den_any root chain) (den_any (add_selector root sel id) chain).
Proof.
  unfold add_selector, den_any, sel_matches_lr. induction 1 as [|cx sel H1 _ IH]; intros root; cbn [fold_left existsb]; [apply adds_refl|].
  eapply adds_trans; [|apply IH]. apply suffixes_host; [apply host_denotes | apply Nat.lt_succ_diag_r | exact H1].
Qed.
