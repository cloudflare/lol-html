(* C10: the two places where the limit is consulted are monotone in it: what fits under M fits, with the same result, under M' >= M. *)
From LolModel Require Import Selectors Machine.
Open Scope nat_scope.

Lemma limiter_ok_mono {M M' x} : (M <= M')%N -> limiter_ok M x = true -> limiter_ok M' x = true.
Proof. unfold limiter_ok. intros H E. apply N.leb_le in E. apply N.leb_le. exact (N.le_trans _ _ _ E H). Qed.
Theorem arena_append_mono a other M M' slice a' : (M <= M')%N ->
  arena_append a other M slice = (a', true) -> arena_append a other M' slice = (a', true).
Proof.
  unfold arena_append. intros H. destruct (_ <? _); [|exact (fun E => E)].
  destruct (limiter_ok M _) eqn:E; [|discriminate]. rewrite (limiter_ok_mono H E). exact (fun E => E).
Qed.
Theorem arena_init_with_mono a other M M' slice a' : (M <= M')%N ->
  arena_init_with a other M slice = (a', true) -> arena_init_with a other M' slice = (a', true).
Proof. unfold arena_init_with. apply arena_append_mono. Qed.
Theorem stack_push_mono s it isz mi other M M' s' ch : (M <= M')%N ->
  stack_push s it isz mi other M = (s', ch, true) -> stack_push s it isz mi other M' = (s', ch, true).
Proof.
  unfold stack_push. intros H. destruct (length (vs_items s) <? vs_cap s); [exact (fun E => E)|].
  destruct (_ <=? M)%N eqn:E; [|discriminate].
  apply (limiter_ok_mono H) in E. unfold limiter_ok in E. rewrite E. exact (fun X => X).
Qed.
