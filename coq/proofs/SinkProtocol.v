(* C12: sink protocol and fail-stop, for every controller and call history. *)
From LolModel Require Import Machine.
From LolProofs Require Import Frame.
Open Scope nat_scope.

Definition data_chunk (c : sink_call) : Prop := exists b, c = SkChunk b /\ b <> [].

(* fin: a successful end() has happened *)
Definition step_fin (fin : bool) (op : api_call) (res : api_res) : bool :=
  fin || match op, res with End, ROk => true | _, _ => false end.

Fixpoint fin_of (fin : bool) (ops : list api_call) (res : list api_res) : bool :=
  match ops, res with
  | o :: ops', x :: res' => fin_of (step_fin fin o x) ops' res'
  | _, _ => fin
  end.

Lemma fin_of_true_iff ops : forall fin res, length res = length ops ->
  fin_of fin ops res = true <-> fin = true \/ exists i, nth_error ops i = Some End /\ nth_error res i = Some ROk.
Proof.
  induction ops as [|o ops IH]; intros fin res Hl; destruct res as [|x res]; try discriminate; cbn.
  - split; [auto | intros [H|[i [H _]]]; [exact H | destruct i; discriminate]].
  - cbn in Hl. rewrite IH by congruence. unfold step_fin. split.
    + intros [H|[i [H1 H2]]].
      * apply orb_true_iff in H as [H|H]; [auto|]. right. exists 0. destruct o, x; try discriminate; auto.
      * right. exists (S i). auto.
    + intros [H|[i [H1 H2]]]; [left; rewrite H; reflexivity|].
      destruct i as [|i]; cbn in *.
      * injection H1 as ->. injection H2 as ->. left. apply orb_true_r.
      * right. exists i; auto.
Qed.

Section SinkProtocol.
Context {C : Type} (ctl : controller C).
Notation disp := (@disp C).

(* the sink log (newest first) grows, by non-empty data chunks only *)
Definition grows (d d' : disp) : Prop := exists l, d_sink d' = l ++ d_sink d /\ Forall data_chunk l.

Lemma grows_same d d' : d_sink d' = d_sink d -> grows d d'.
Proof. intro E. exists []; split; [exact E | constructor]. Qed.
Lemma grows_refl d : grows d d.
Proof. exact (grows_same d d eq_refl). Qed.
Lemma grows_trans {a b c} : grows a b -> grows b c -> grows a c.
Proof.
  intros [l1 [E1 F1]] [l2 [E2 F2]]. exists (l2 ++ l1). split.
  - rewrite E2, E1, app_assoc. reflexivity.
  - apply Forall_app; split; assumption.
Qed.
Lemma grows_push d b : b <> [] -> grows d (sink_push d b).
Proof. intro H. exists [SkChunk b]; split; [reflexivity|]. constructor; [exists b; auto | constructor]. Qed.

(* every setter and every controller call, whatever it returns, leaves the sink alone: Frame's hypotheses past the laws and R_push *)
Local Ltac frame lem :=
  apply lem; [exact grows_refl | exact @grows_trans | exact (fun _ _ H => H) | exact @grows_trans | exact grows_push | ..];
  intros; try match goal with |- match ?r with _ => _ end => destruct r end; apply grows_same; reflexivity.
Lemma write_grows s data : grows (sdisp s) (sdisp (fst (write ctl s data))).
Proof.
  assert (H : sR grows grows (sdisp s) (write ctl s data)) by frame (write_R ctl grows grows).
  unfold sR in H. destruct (snd (write ctl s data)); exact H.
Qed.

Lemma finish_grows s :
  match finish ctl s with
  | (s', COk) => exists d, grows (sdisp s) d /\ sdisp s' = sink_push d []
  | (s', _) => grows (sdisp s) (sdisp s')
  end.
Proof. frame (finish_R ctl grows grows). Qed.

(* d0: the dispatcher state at the start *)
Definition proto (d0 : disp) (r : @rewriter C) (fin : bool) : Prop :=
  if fin then rw_ended r = true /\ exists d, grows d0 d /\ sdisp (rw_stream r) = sink_push d []
  else grows d0 (sdisp (rw_stream r)).

Lemma proto_step d0 r fin op :
  proto d0 r fin ->
  let '(r', res) := api_step ctl r op in proto d0 r' (step_fin fin op res).
Proof.
  intro H. unfold api_step. destruct (rw_ended r) eqn:Een.
  { destruct fin, op; exact H. }
  destruct fin; [destruct H as [H _]; congruence|].
  destruct (rw_poisoned r).
  { destruct op; exact H. }
  destruct op as [data|].
  - pose proof (grows_trans H (write_grows (rw_stream r) data)) as H'.
    destruct (write ctl (rw_stream r) data) as [s' res]. destruct res; exact H'.
  - pose proof (finish_grows (rw_stream r)) as G.
    destruct (finish ctl (rw_stream r)) as [s' res]. destruct res; [|exact (grows_trans H G)..].
    destruct G as [d [G Es]]. split; [reflexivity|]. exists d. split; [exact (grows_trans H G) | exact Es].
Qed.

Lemma proto_run d0 ops : forall r fin,
  proto d0 r fin ->
  let '(r', res) := api_run ctl r ops in proto d0 r' (fin_of fin ops res).
Proof.
  induction ops as [|o ops IH]; intros r fin H; cbn; [exact H|].
  pose proof (proto_step d0 r fin o H) as H1.
  destruct (api_step ctl r o) as [r1 x].
  specialize (IH r1 _ H1). destruct (api_run ctl r1 ops) as [r2 xs]. cbn. exact IH.
Qed.

(* the sink calls, oldest first *)
Theorem sink_protocol cfg c0 ops :
  let '(r, res) := api_run ctl (new_rewriter ctl cfg c0) ops in
  exists body,
    rw_sink r = SkEncoding (st_encoding cfg) :: body ++ (if fin_of false ops res then [SkChunk []] else [])
    /\ Forall data_chunk body.
Proof.
  pose proof (proto_run _ ops _ false (grows_refl (sdisp (rw_stream (new_rewriter ctl cfg c0))))) as H.
  destruct (api_run ctl (new_rewriter ctl cfg c0) ops) as [r res]. unfold proto, rw_sink, sdisp in *.
  destruct (fin_of false ops res).
  - destruct H as [_ [d [[body [E F]] ->]]]. exists (rev body). cbn. rewrite E, rev_app_distr. split; [reflexivity | apply Forall_rev, F].
  - destruct H as [body [-> F]]. exists (rev body). rewrite rev_app_distr, app_nil_r. split; [reflexivity | apply Forall_rev, F].
Qed.

(* Fail-stop: a poisoned rewriter panics as documented and leaves stream and sink as they are *)
Theorem poisoned_is_inert r op : rw_poisoned r = true -> rw_ended r = false ->
  exists ended, api_step ctl r op = (mkRw (rw_stream r) true ended, RPanicPoisoned).
Proof. intros H1 H2. unfold api_step. rewrite H1, H2. eexists; reflexivity. Qed.
Theorem error_poisons r op r' e : rw_ended r = false -> rw_poisoned r = false -> api_step ctl r op = (r', RErr e) -> rw_poisoned r' = true.
Proof.
  intros H1 H2. unfold api_step. rewrite H1, H2.
  destruct op; [destruct (write ctl (rw_stream r) data) as [s' res] | destruct (finish ctl (rw_stream r)) as [s' res]];
    destruct res; intros [= <- _]; reflexivity.
Qed.
End SinkProtocol.
