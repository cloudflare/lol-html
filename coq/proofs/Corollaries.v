(* Corollaries of the tiling theorem used by C02, C06, C09, and the list fact about absolute ranges behind C14. *)
From LolModel Require Import Machine.
From LolProofs Require Import Tiling TableFacts.
From Coq Require Import Lia.
Open Scope nat_scope.

Section Cor.
Context {C : Type} (ctl : controller C).
Hypothesis obs_token : forall c t c' ps, c_token ctl c t = (c', OOk ps) -> List.concat ps = token_bytes t.
Hypothesis obs_emit : forall c, c_should_emit ctl c = true.

(* what is held back after successful writes is exactly the buffered tail of the input *)
Theorem pending_is_buffered cfg c0 chunks r res :
  api_run ctl (new_rewriter ctl cfg c0) (map Write chunks) = (r, res) -> Forall (fun x => x = ROk) res ->
  sink_bytes (rw_sink r) ++ buffered (rw_stream r) = List.concat chunks
  /\ length (List.concat chunks) - length (sink_bytes (rw_sink r)) = length (buffered (rw_stream r)).
Proof.
  intros E Hall.
  destruct (writes_G ctl obs_token obs_emit table_ok_current chunks (new_rewriter ctl cfg c0) [] (G_init ctl cfg c0) eq_refl eq_refl r res E Hall)
    as ((Hsb & _) & _ & _).
  cbn in Hsb. split; [exact Hsb|]. rewrite <- Hsb, app_length. unfold rw_sink, sd_, sb in *. lia.
Qed.
End Cor.

(* two runs (any two observer controllers, e.g. H and H plus observers; any two chunkings of the same bytes) emit the same bytes *)
Theorem observers_agree {C1 C2} (ctl1 : controller C1) (ctl2 : controller C2) cfg1 cfg2 c1 c2 chunks1 chunks2 r1 res1 r2 res2 :
  (forall c t c' ps, c_token ctl1 c t = (c', OOk ps) -> List.concat ps = token_bytes t) -> (forall c, c_should_emit ctl1 c = true) -> (forall c, snd (fst (c_end ctl1 c)) = []) ->
  (forall c t c' ps, c_token ctl2 c t = (c', OOk ps) -> List.concat ps = token_bytes t) -> (forall c, c_should_emit ctl2 c = true) -> (forall c, snd (fst (c_end ctl2 c)) = []) ->
  List.concat chunks1 = List.concat chunks2 ->
  api_run ctl1 (new_rewriter ctl1 cfg1 c1) (map Write chunks1 ++ [End]) = (r1, res1) -> Forall (fun x => x = ROk) res1 ->
  api_run ctl2 (new_rewriter ctl2 cfg2 c2) (map Write chunks2 ++ [End]) = (r2, res2) -> Forall (fun x => x = ROk) res2 ->
  sink_bytes (rw_sink r1) = sink_bytes (rw_sink r2).
Proof.
  intros A1 A2 A3 B1 B2 B3 Hc E1 H1 E2 H2.
  rewrite (pass_through ctl1 A1 A2 table_ok_current cfg1 c1 chunks1 r1 res1 A3 E1 H1).
  rewrite (pass_through ctl2 B1 B2 table_ok_current cfg2 c2 chunks2 r2 res2 B3 E2 H2). exact Hc.
Qed.

(* absolute ranges: a range relative to the chunk, shifted by the number of bytes consumed before, slices the
   whole document to the same bytes *)
Lemma slice_abs (pre chunk : bytes) (r : range) :
  slice (pre ++ chunk) (abs_range (length pre) r) = slice chunk r.
Proof.
  unfold slice, abs_range. cbn.
  replace (length pre + re r - (length pre + rs r)) with (re r - rs r) by lia.
  rewrite skipn_app. rewrite skipn_all2 by lia. cbn.
  replace (length pre + rs r - length pre) with (rs r) by lia. reflexivity.
Qed.
