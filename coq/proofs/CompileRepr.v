(* C04: Compiler::compile_nodes lays the AST out so that every node is represented by its instruction (VmExec.rnode):
   siblings contiguous, jumps = the range of the children, hereditary jumps = the range of the descendant branches. *)
From LolModel Require Import Selectors.
From LolProofs Require Import CssPred AstSem VmExec.
From Coq Require Import Lia.
Import ListNotations.
Open Scope nat_scope.

(* the children (or the descendant branches) of one node: nothing, or a block compiled by cn *)
Definition block (cn : list ast_node -> nat -> list (nat * instr) * nat * range) (l : list ast_node) (fr : nat) (acc : list (nat * instr)) :=
  match l with [] => (acc, fr, None) | _ => let '(m, f', rg) := cn l fr in (acc ++ m, f', Some rg) end.
Definition go_nodes (cn : list ast_node -> nat -> list (nat * instr) * nat * range) :=
  fix go (ns : list ast_node) (pos : nat) (fr : nat) (acc : list (nat * instr)) : list (nat * instr) * nat :=
    match ns with
    | [] => (acc, fr)
    | Node p ch ds ids :: r =>
        let '(acc1, fr1, j) := block cn ch fr acc in
        let '(acc2, fr2, hj) := block cn ds fr1 acc1 in
        go r (S pos) fr2 (acc2 ++ [(pos, mkInstr p ids j hj)])
    end.
Lemma compile_nodes_S f nodes free : compile_nodes (S f) nodes free =
  let (m, fr) := go_nodes (compile_nodes f) nodes free (free + length nodes) [] in (m, fr, mkR free (free + length nodes)).
Proof. reflexivity. Qed.

Lemma lookup_in : forall m a i, lookup_instr m a = Some i -> In (a, i) m.
Proof.
  induction m as [|[k j] m IH]; intros a i E; cbn [lookup_instr] in E; [discriminate|].
  destruct (k =? a) eqn:Ek; [apply Nat.eqb_eq in Ek; injection E as <-; subst; left; reflexivity | right; apply IH; exact E].
Qed.
Lemma in_lookup : forall m a i, NoDup (map fst m) -> In (a, i) m -> lookup_instr m a = Some i.
Proof.
  induction m as [|[k j] m IH]; intros a i Hnd Hin; [destruct Hin|]. cbn [map fst] in Hnd. apply NoDup_cons_iff in Hnd. destruct Hnd as [Hk Hnd'].
  cbn [lookup_instr]. destruct Hin as [E|Hin].
  - injection E as -> ->. rewrite Nat.eqb_refl. reflexivity.
  - destruct (k =? a) eqn:Ek; [|apply IH; assumption]. apply Nat.eqb_eq in Ek. subst. exfalso. apply Hk. apply (in_map fst) in Hin. exact Hin.
Qed.

(* prog contains the mappings m *)
Definition extends (prog : program) (m : list (nat * instr)) : Prop := forall a i, In (a, i) m -> lookup_instr (pr_instrs prog) a = Some i.
Lemma extends_app prog x y : extends prog (x ++ y) -> extends prog x /\ extends prog y.
Proof. intros H. split; intros a i Hin; apply H; apply in_or_app; auto. Qed.

Lemma depth_bound l d : fold_left (fun m x => max m (ast_depth x)) l 0 <= d -> Forall (fun x => ast_depth x <= d) l.
Proof. intros H. apply Forall_forall. intros x Hx. exact (Nat.le_trans _ _ _ (proj2 (fold_max_ge ast_depth l 0) x Hx) H). Qed.
Lemma depth_children {p ch ds ids f} : ast_depth (Node p ch ds ids) <= S f ->
  Forall (fun x => ast_depth x <= f) ch /\ Forall (fun x => ast_depth x <= f) ds.
Proof. cbn [ast_depth]. intros H. apply le_S_n in H. split; apply depth_bound; [exact (Nat.max_lub_l _ _ _ H) | exact (Nat.max_lub_r _ _ _ H)]. Qed.

Definition keyed (P : nat -> Prop) (m : list (nat * instr)) : Prop := (forall a i, In (a, i) m -> P a) /\ NoDup (map fst m).
Lemma keyed_nil P : keyed P [].
Proof. split; [intros a i [] | constructor]. Qed.
Lemma keyed_one (P : nat -> Prop) a i : P a -> keyed P [(a, i)].
Proof. intros H. split; [intros b j [E|[]]; injection E as <- _; exact H | constructor; [intros [] | constructor]]. Qed.
Lemma keyed_weaken {P Q : nat -> Prop} {m} : (forall a, P a -> Q a) -> keyed P m -> keyed Q m.
Proof. intros H [K N]. split; [intros a i Hin; exact (H a (K a i Hin)) | exact N]. Qed.
Lemma keyed_app {P Q : nat -> Prop} {x y} : keyed P x -> keyed Q y -> (forall a, P a -> Q a -> False) -> keyed (fun a => P a \/ Q a) (x ++ y).
Proof.
  intros [HP Hx] [HQ Hy] Hd. split.
  - intros a i H. apply in_app_or in H. destruct H as [H|H]; [left; exact (HP a i H) | right; exact (HQ a i H)].
  - induction x as [|[a i] x IH]; [exact Hy|]. cbn [app map fst] in *. apply NoDup_cons_iff in Hx. destruct Hx as [Ha Hx']. constructor.
    + rewrite map_app, in_app_iff. intros [H|H]; [exact (Ha H)|]. apply in_map_iff in H. destruct H as [[a' i'] [E H]]. cbn in E. subst a'.
      exact (Hd a (HP a i (or_introl eq_refl)) (HQ a i' H)).
    + apply IH; [intros b j Hb; apply (HP b j); right; exact Hb | exact Hx'].
Qed.

(* the keys one run of go writes: the slots of the n siblings from lo on, and the blocks of their children in [lo', hi') *)
Definition zone (lo n lo' hi' a : nat) : Prop := lo <= a < lo + n \/ lo' <= a < hi'.
Lemma keyed_block {lo n lo' mid hi' x y} : keyed (fun a => lo' <= a < mid) x -> keyed (zone lo n mid hi') y ->
  lo + n <= lo' -> lo' <= mid -> mid <= hi' -> keyed (zone lo n lo' hi') (x ++ y).
Proof. intros Kx Ky H1 H2 H3. refine (keyed_weaken _ (keyed_app Kx Ky _)); unfold zone; intros a; lia. Qed.
Lemma keyed_slot {lo n lo' hi' y} i : keyed (zone (S lo) n lo' hi') y -> S lo + n <= lo' -> keyed (zone lo (S n) lo' hi') ((lo, i) :: y).
Proof. intros Ky H. refine (keyed_weaken _ (keyed_app (keyed_one (eq lo) lo i eq_refl) Ky _)); unfold zone; intros a; lia. Qed.

Definition cn_spec (f : nat) : Prop := forall nodes free m fr' r,
  Forall (fun x => ast_depth x <= f) nodes -> compile_nodes f nodes free = (m, fr', r) ->
  free + length nodes <= fr' /\ keyed (fun a => free <= a < fr') m /\ forall prog, extends prog m -> rrange prog r nodes.

Lemma block_spec f : cn_spec f -> forall l acc fr, Forall (fun x => ast_depth x <= f) l ->
  exists m1 f1 j, block (compile_nodes f) l fr acc = (acc ++ m1, f1, j) /\
  fr <= f1 /\ keyed (fun a => fr <= a < f1) m1 /\ forall prog, extends prog m1 -> jrep prog l j.
Proof.
  intros IHf l acc fr Dl. unfold block. destruct l as [|x l'].
  - exists [], fr, None. rewrite app_nil_r. split; [reflexivity|]. split; [apply le_n|]. split; [apply keyed_nil | reflexivity].
  - destruct (compile_nodes f (x :: l') fr) as [[m1 f1] rg] eqn:E1. destruct (IHf _ _ _ _ _ Dl E1) as [Hf1 [Hk Hrep]].
    exists m1, f1, (Some rg). split; [reflexivity|]. split; [exact (Nat.le_trans _ _ _ (Nat.le_add_r _ _) Hf1)|]. split; [exact Hk|].
    intros prog Hext. exists rg. split; [reflexivity | exact (Hrep prog Hext)].
Qed.
Lemma go_spec f : cn_spec f -> forall ns pos fr acc m' fr',
  Forall (fun x => ast_depth x <= S f) ns -> pos + length ns <= fr ->
  go_nodes (compile_nodes f) ns pos fr acc = (m', fr') ->
  fr <= fr' /\ exists mnew, m' = acc ++ mnew /\ keyed (zone pos (length ns) fr fr') mnew /\
  forall prog, extends prog mnew -> rlist prog ns pos.
Proof.
  intros IHf. induction ns as [|[p ch ds ids] r IH]; intros pos fr acc m' fr' Hd Hpos E.
  - cbn [go_nodes] in E. injection E as <- <-. split; [apply le_n|].
    exists []. rewrite app_nil_r. split; [reflexivity|]. split; [apply keyed_nil | intros; exact I].
  - pose proof (Forall_inv_tail Hd) as Hd2. destruct (depth_children (Forall_inv Hd)) as [Dch Dds]. cbn [length] in Hpos.
    cbn [go_nodes] in E.
    destruct (block_spec f IHf ch acc fr Dch) as [m1 [f1 [j [Ech [Hf1 [K1 Hrep1]]]]]]. rewrite Ech in E.
    destruct (block_spec f IHf ds (acc ++ m1) f1 Dds) as [m2 [f2 [hj [Eds [Hf2 [K2 Hrep2]]]]]]. rewrite Eds in E.
    assert (Hpos2 : S pos + length r <= f2) by (clear - Hpos Hf1 Hf2; lia).
    apply IH in E; [|exact Hd2|exact Hpos2]. destruct E as [Hfr [mrest [Em [Kr Hrepr]]]].
    split; [exact (Nat.le_trans _ _ _ Hf1 (Nat.le_trans _ _ _ Hf2 Hfr))|].
    exists (m1 ++ m2 ++ [(pos, mkInstr p ids j hj)] ++ mrest). split; [rewrite Em, <- !app_assoc; reflexivity|]. split.
    + (* the blocks lie above all slots, each above the one before *)
      exact (keyed_block K1 (keyed_block K2 (keyed_slot _ Kr Hpos2) (Nat.le_trans _ _ _ Hpos Hf1) Hf2 Hfr) Hpos Hf1 (Nat.le_trans _ _ _ Hf2 Hfr)).
    + intros prog Hext. apply extends_app in Hext. destruct Hext as [X1 Hext]. apply extends_app in Hext. destruct Hext as [X2 X3].
      apply rlist_cons. split; [|apply Hrepr; intros a i H; apply X3; right; exact H].
      unfold instr_at. rewrite (X3 pos _ (or_introl eq_refl)). apply rnode_eq. cbn [i_pred i_ids i_jumps i_hjumps n_pred n_ids n_children n_desc].
      repeat split; [exact (Hrep1 prog X1) | exact (Hrep2 prog X2)].
Qed.

Theorem compile_nodes_spec : forall f, cn_spec f.
Proof.
  induction f as [|f IHf]; intros nodes free m fr' r Hd E.
  - cbn [compile_nodes] in E. injection E as <- <- <-. destruct nodes as [|x nodes]; [|destruct x; destruct (Nat.nle_succ_0 _ (Forall_inv Hd))].
    cbn [length]. rewrite Nat.add_0_r. split; [apply le_n|]. split; [apply keyed_nil | intros; exact (conj (plus_n_O free) I)].
  - rewrite compile_nodes_S in E. destruct (go_nodes (compile_nodes f) nodes free (free + length nodes) []) as [m0 fr0] eqn:Eg.
    injection E as <- <- <-. apply (go_spec f IHf) in Eg; [|exact Hd|apply le_n]. destruct Eg as [Hfr [mnew [Em [Hk Hrep]]]]. cbn [app] in Em. subst m0.
    split; [exact Hfr|]. split; [|intros prog X; exact (conj eq_refl (Hrep prog X))]. revert Hk. apply keyed_weaken. unfold zone. intros a. lia.
Qed.

Theorem compile_represents_ast root : rrange (compile root) (pr_entry (compile root)) root.
Proof.
  unfold compile. set (d := S (fold_left (fun m x => max m (ast_depth x)) root 0)).
  destruct (compile_nodes d root 0) as [[m fr] entry] eqn:E. cbn [pr_entry].
  assert (Hd : Forall (fun x => ast_depth x <= d) root) by (apply depth_bound, Nat.le_succ_diag_r).
  destruct (compile_nodes_spec d _ _ _ _ _ Hd E) as [_ [[_ Hn] Hrep]].
  apply Hrep. intros a i Hin. cbn [pr_instrs]. apply in_lookup; assumption.
Qed.
