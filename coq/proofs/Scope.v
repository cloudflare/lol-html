(* C05: the activation counts of selector-scoped comment/text handlers track exactly the open matched elements.
   Invariant over every state of the level-2 model reached through successful writes (any document, chunking, selector
   set, handler scripts). *)
From LolModel Require Import Rewriter.
From LolProofs Require Import Frame Memory StackTree.
From Coq Require Import Lia.
Open Scope nat_scope.

Definition cnt {A} (v : hvec A) (i : nat) : nat := match nth_error v i with Some it => hi_count it | None => 0 end.

(* hv_inc and hv_dec rewrite the item at one index: their local fixpoint, with the rewriting g left open *)
Definition upd_from {A} (g : hitem A -> hitem A) (idx : nat) : hvec A -> nat -> hvec A :=
  fix go l k := match l with [] => [] | i :: r => if k =? idx then g i :: r else i :: go r (S k) end.
Lemma hv_inc_eq {A} (v : hvec A) idx : hv_inc v idx = upd_from (fun i => mkHI i.(hi_h) (S i.(hi_count))) idx v 0.
Proof. reflexivity. Qed.
Lemma hv_dec_eq {A} (v : hvec A) idx : hv_dec v idx = upd_from (fun i => mkHI i.(hi_h) (i.(hi_count) - 1)) idx v 0.
Proof. reflexivity. Qed.
Lemma nth_upd_from {A} g idx (v : hvec A) : forall k i,
  nth_error (upd_from g idx v k) i = if k + i =? idx then option_map g (nth_error v i) else nth_error v i.
Proof.
  induction v as [|x r IH]; intros k i; cbn [upd_from]; [destruct (k + i =? idx), i; reflexivity|].
  destruct (Nat.eqb_spec k idx) as [->|Hne]; destruct i as [|i]; cbn [nth_error].
  - rewrite Nat.add_0_r, Nat.eqb_refl. reflexivity.
  - destruct (Nat.eqb_spec (idx + S i) idx); [lia | reflexivity].
  - rewrite Nat.add_0_r. apply Nat.eqb_neq in Hne. rewrite Hne. reflexivity.
  - rewrite IH, Nat.add_succ_r. reflexivity.
Qed.
Lemma length_upd_from {A} g idx (v : hvec A) : forall k, length (upd_from g idx v k) = length v.
Proof. induction v as [|x r IH]; intros k; cbn; [reflexivity|]. destruct (k =? idx); cbn; [reflexivity|]. rewrite IH. reflexivity. Qed.
Lemma cnt_hv_inc {A} (v : hvec A) idx i : idx < length v -> cnt (hv_inc v idx) i = cnt v i + (if i =? idx then 1 else 0).
Proof.
  intros H. unfold cnt. rewrite hv_inc_eq, nth_upd_from. cbn [Nat.add]. destruct (Nat.eqb_spec i idx) as [->|]; [|symmetry; apply Nat.add_0_r].
  destruct (nth_error v idx) eqn:E; cbn; [symmetry; apply Nat.add_1_r | apply nth_error_None in E; lia].
Qed.
Lemma cnt_hv_dec {A} (v : hvec A) idx i : cnt (hv_dec v idx) i = cnt v i - (if i =? idx then 1 else 0).
Proof.
  unfold cnt. rewrite hv_dec_eq, nth_upd_from. cbn [Nat.add]. destruct (i =? idx); [|symmetry; apply Nat.sub_0_r].
  destruct (nth_error v i); reflexivity.
Qed.
Lemma length_hv_inc {A} (v : hvec A) idx : length (hv_inc v idx) = length v.
Proof. rewrite hv_inc_eq. apply length_upd_from. Qed.
Lemma length_hv_dec {A} (v : hvec A) idx : length (hv_dec v idx) = length v.
Proof. rewrite hv_dec_eq. apply length_upd_from. Qed.

Definition locs_ok (locs : list locator) (ncm ntx : nat) : Prop :=
  forall id l, nth_error locs id = Some l -> (forall i, lc_cm l = Some i -> i < ncm) /\ (forall i, lc_tx l = Some i -> i < ntx).

Section Scope.
Variable locs : list locator.
Variable ncm ntx : nat.
Hypothesis locs_good : locs_ok locs ncm ntx.

Definition owns (sel : locator -> option nat) (i id : nat) : bool :=
  match nth_error locs id with Some l => match sel l with Some j => j =? i | None => false end | None => false end.
Definition uses (sel : locator -> option nat) (i : nat) (ids : list nat) : nat := length (filter (owns sel i) ids).
Definition all_ids (items : list stack_item) : list nat := flat_map (fun it => ed_matched (si_data it)) items.
Lemma uses_app sel i a b : uses sel i (a ++ b) = uses sel i a + uses sel i b.
Proof. unfold uses. rewrite filter_app, app_length. reflexivity. Qed.
Lemma uses_cons sel i id ids : uses sel i (id :: ids) = (if owns sel i id then 1 else 0) + uses sel i ids.
Proof. unfold uses. cbn. destruct (owns sel i id); reflexivity. Qed.
Lemma all_ids_app a b : all_ids (a ++ b) = all_ids a ++ all_ids b.
Proof. unfold all_ids. apply flat_map_app. Qed.

Variable bcm btx : nat -> nat.     (* base counts: 1 for document-level handlers, 0 for selector-scoped ones *)
(* one channel, comments or text as sel chooses; ids will be the matched ids of all open elements *)
Definition tracks {A} (sel : locator -> option nat) (n : nat) (b : nat -> nat) (v : hvec A) (ids : list nat) : Prop :=
  length v = n /\ forall i, cnt v i = b i + uses sel i ids.
Definition SInv (c : rwc) : Prop :=
  r_locators c = locs /\
  tracks lc_cm ncm bcm (r_comment c) (all_ids (vs_items (r_stack c))) /\
  tracks lc_tx ntx btx (r_text c) (all_ids (vs_items (r_stack c))).

(* the step of start_matching (op = hv_inc) and of stop_matching (op = hv_dec), on one channel *)
Definition bump1 {A} (op : hvec A -> nat -> hvec A) (sel : locator -> option nat) (v : hvec A) (id : nat) : hvec A :=
  match nth_error locs id with Some l => match sel l with Some i => op v i | None => v end | None => v end.

(* op adds to (g = Nat.add) or takes from (g = Nat.sub) the count at one index; R says what it needs of that index *)
Lemma bump_fold {A} (op : hvec A -> nat -> hvec A) (g : nat -> nat -> nat) (R : nat -> nat -> Prop) sel n :
  (forall x, g x 0 = x) -> (forall x a b, g x (a + b) = g (g x a) b) ->
  (forall v j, length (op v j) = length v) ->
  (forall v j i, R j (length v) -> cnt (op v j) i = g (cnt v i) (if i =? j then 1 else 0)) ->
  (forall id l i, nth_error locs id = Some l -> sel l = Some i -> R i n) ->
  forall ids (v : hvec A), length v = n ->
  length (fold_left (bump1 op sel) ids v) = n /\ forall i, cnt (fold_left (bump1 op sel) ids v) i = g (cnt v i) (uses sel i ids).
Proof.
  intros g0 gadd Hlen Hcnt Hb. induction ids as [|id ids IH]; intros v Hv; cbn [fold_left].
  - split; [exact Hv | intros i; symmetry; apply g0].
  - assert (length (bump1 op sel v id) = n /\ forall i, cnt (bump1 op sel v id) i = g (cnt v i) (if owns sel i id then 1 else 0)) as [L1 C1].
    { unfold bump1, owns. destruct (nth_error locs id) as [l|] eqn:El; [destruct (sel l) as [j|] eqn:Ej|].
      2, 3: split; [exact Hv | intros; symmetry; apply g0].
      split; [rewrite Hlen; exact Hv|]. intros i. rewrite Hcnt by (rewrite Hv; exact (Hb id l j El Ej)).
      rewrite (Nat.eqb_sym i j). reflexivity. }
    destruct (IH _ L1) as [L2 C2]. split; [exact L2|]. intros i. rewrite C2, C1, <- gadd, uses_cons. reflexivity.
Qed.
Lemma tracks_nil {A} sel (v : hvec A) : tracks sel (length v) (cnt v) v [].
Proof. split; [reflexivity | intros i; symmetry; apply Nat.add_0_r]. Qed.
Lemma tracks_start {A sel n b ids more} {v : hvec A} : (forall id l i, nth_error locs id = Some l -> sel l = Some i -> i < n) ->
  tracks sel n b v ids -> tracks sel n b (fold_left (bump1 hv_inc sel) more v) (ids ++ more).
Proof.
  intros Hb [L C]. destruct (bump_fold hv_inc Nat.add lt sel n Nat.add_0_r Nat.add_assoc length_hv_inc cnt_hv_inc Hb more v L) as [L' C'].
  split; [exact L'|]. intros i. rewrite C', C, uses_app. symmetry. apply Nat.add_assoc.
Qed.
Lemma tracks_stop {A sel n b ids gone} {v : hvec A} :
  tracks sel n b v (ids ++ gone) -> tracks sel n b (fold_left (bump1 hv_dec sel) gone v) ids.
Proof.
  intros [L C].
  destruct (bump_fold hv_dec Nat.sub (fun _ _ => True) sel n Nat.sub_0_r Nat.sub_add_distr length_hv_dec
              (fun v j i _ => cnt_hv_dec v j i) (fun _ _ _ _ _ => I) gone v L) as [L' C'].
  split; [exact L'|]. intros i. rewrite C', C, uses_app, Nat.add_assoc. apply Nat.add_sub.
Qed.
Lemma locs_cm id l i : nth_error locs id = Some l -> lc_cm l = Some i -> i < ncm.
Proof. intros E. exact (proj1 (locs_good id l E) i). Qed.
Lemma locs_tx id l i : nth_error locs id = Some l -> lc_tx l = Some i -> i < ntx.
Proof. intros E. exact (proj2 (locs_good id l E) i). Qed.

Lemma fold_fields {B} (step : rwc -> B -> rwc) gcm gtx :
  (forall c b, r_locators c = locs -> r_locators (step c b) = locs /\
               r_comment (step c b) = gcm (r_comment c) b /\ r_text (step c b) = gtx (r_text c) b) ->
  forall l c, r_locators c = locs ->
    r_locators (fold_left step l c) = locs /\
    r_comment (fold_left step l c) = fold_left gcm l (r_comment c) /\ r_text (fold_left step l c) = fold_left gtx l (r_text c).
Proof.
  intros Hs. induction l as [|b l IH]; intros c Hl; cbn [fold_left]; [auto|].
  destruct (Hs c b Hl) as (H1 & H2 & H3). destruct (IH _ H1) as (I1 & I2 & I3). rewrite I2, I3, H2, H3. auto.
Qed.

Lemma start_matching_fields ids c : r_locators c = locs ->
  let c' := start_matching c ids true in
  r_locators c' = locs /\
  r_comment c' = fold_left (bump1 hv_inc lc_cm) ids (r_comment c) /\ r_text c' = fold_left (bump1 hv_inc lc_tx) ids (r_text c).
Proof.
  apply fold_fields. intros c0 id H0. unfold bump1. rewrite <- H0. destruct (nth_error (r_locators c0) id); cbn; auto.
Qed.
Lemma stop_matching_fields c d : r_locators c = locs ->
  r_locators (stop_matching c d) = locs /\
  r_comment (stop_matching c d) = fold_left (bump1 hv_dec lc_cm) (ed_matched d) (r_comment c) /\
  r_text (stop_matching c d) = fold_left (bump1 hv_dec lc_tx) (ed_matched d) (r_text c).
Proof.
  unfold stop_matching. cbn [rset_handlers r_locators r_comment r_text].
  apply fold_fields. intros c0 id H0. unfold bump1. rewrite <- H0. destruct (nth_error (r_locators c0) id); cbn; auto.
Qed.
Lemma fold_left_flat_map {S B D} (g : S -> B -> S) (h : D -> list B) l : forall v,
  fold_left g (flat_map h l) v = fold_left (fun v d => fold_left g (h d) v) l v.
Proof. induction l as [|d l IH]; intro v; cbn; [reflexivity|]. rewrite fold_left_app. apply IH. Qed.
Lemma fold_stop_fields ds c : r_locators c = locs ->
  let c' := fold_left stop_matching ds c in
  r_locators c' = locs /\
  r_comment c' = fold_left (bump1 hv_dec lc_cm) (flat_map ed_matched ds) (r_comment c) /\
  r_text c' = fold_left (bump1 hv_dec lc_tx) (flat_map ed_matched ds) (r_text c).
Proof. cbn zeta. rewrite !fold_left_flat_map. apply fold_fields. exact stop_matching_fields. Qed.

Lemma map_last_ids (f : stack_item -> stack_item) items :
  (forall it, ed_matched (si_data (f it)) = ed_matched (si_data it)) -> all_ids (map_last f items) = all_ids items.
Proof.
  intros Hf. destruct items as [|x l] using rev_ind; [reflexivity|].
  rewrite map_last_snoc, !all_ids_app. cbn. rewrite Hf. reflexivity.
Qed.
Lemma set_top_data_ids s f : (forall d, ed_matched (f d) = ed_matched d) -> all_ids (vs_items (set_top_data s f)) = all_ids (vs_items s).
Proof. intros Hf. unfold set_top_data. cbn. apply map_last_ids. intros it. cbn. apply Hf. Qed.
Lemma stack_add_child_ids s n : all_ids (vs_items (stack_add_child s n)) = all_ids (vs_items s).
Proof. rewrite stack_add_child_eq. cbn [vs_items]. apply map_last_ids. reflexivity. Qed.

Lemma all_ids_single it : all_ids [it] = ed_matched (si_data it).
Proof. unfold all_ids. cbn. apply app_nil_r. Qed.

Lemma finish_exec_SInv c ext ec c' f : SInv c -> finish_exec c ext ec = (c', FOk f) -> SInv c'.
Proof.
  intros Hi. unfold finish_exec. destruct (ec_with_content ec).
  - destruct Hi as (Hl & Hc & Ht).
    destruct (start_matching_fields (ed_matched (si_data (ec_item ec))) c Hl) as (Hl1 & Hc1 & Ht1).
    destruct (stack_push _ _ _ _ _ _) as [[s' charged] [|]] eqn:Ep; intros [= <- <-].
    destruct (stack_push_true Ep) as (_ & _ & Ei & _).
    unfold SInv. cbn [rset_vm r_locators r_comment r_text r_stack].
    rewrite Ei, (start_matching_frame r_stack), all_ids_app, all_ids_single, Hc1, Ht1 by reflexivity.
    exact (conj Hl1 (conj (tracks_start locs_cm Hc) (tracks_start locs_tx Ht))).
  - (* without content only element handlers are activated *)
    intros [= <- <-]. unfold start_matching. rewrite (fold_left_frame SInv); [exact Hi|].
    intros a id. destruct (nth_error (r_locators a) id); reflexivity.
Qed.

Lemma SInv_vm c s ch : SInv c -> all_ids (vs_items s) = all_ids (vs_items (r_stack c)) -> SInv (rset_vm c s ch).
Proof. intros H E. unfold SInv. cbn [rset_vm r_locators r_comment r_text r_stack]. rewrite E. exact H. Qed.
Lemma SInv_pending c p : SInv c -> SInv (rset_pending c p).
Proof. exact (fun H => H). Qed.

Lemma rw_start_tag_SInv c ext n h x c' r : SInv c -> rw_start_tag c ext n h x = (c', r) -> match r with SErr _ => True | _ => SInv c' end.
Proof.
  apply (rw_start_tag_P SInv ext); [|exact SInv_pending|intros c0 ec; apply finish_exec_SInv].
  intros c0 ln H. apply SInv_vm; [exact H | apply stack_add_child_ids].
Qed.
Lemma rw_aux_info_SInv c ext a sc c' f : SInv c -> rw_aux_info c ext a sc = (c', FOk f) -> SInv c'.
Proof. apply (rw_aux_info_P SInv ext); [exact SInv_pending | intros c0 ec; apply finish_exec_SInv]. Qed.
Lemma pop_ids s n s' popped : stack_pop_up_to s n = (s', popped) ->
  all_ids (vs_items s) = all_ids (vs_items s') ++ flat_map ed_matched popped.
Proof.
  unfold stack_pop_up_to. destruct (rposition (vs_items s) n 0 None) as [idx|]; intros [= <- <-]; cbn [vs_items].
  - transitivity (all_ids (firstn idx (vs_items s) ++ skipn idx (vs_items s))); [rewrite firstn_skipn; reflexivity|].
    rewrite all_ids_app. f_equal. unfold all_ids. rewrite !flat_map_concat_map, map_map. reflexivity.
  - symmetry. apply app_nil_r.
Qed.
Lemma rw_end_tag_SInv c n h c' f : SInv c -> rw_end_tag c n h = (c', f) -> SInv c'.
Proof.
  intros Hi. unfold rw_end_tag. destruct (r_prog c) as [prog|]; [|intros [= <- <-]; exact Hi].
  destruct (stack_pop_up_to (r_stack c) (lname_of n h)) as [s' popped] eqn:Ep. intros [= <- <-].
  apply pop_ids in Ep. destruct Hi as (Hl & Hc & Ht). rewrite Ep in Hc, Ht.
  destruct (fold_stop_fields popped (rset_vm c s' (r_vm_charged c)) Hl) as (Hl2 & Hc2 & Ht2).
  unfold SInv. rewrite (fold_stop_frame r_stack), Hc2, Ht2 by reflexivity. exact (conj Hl2 (conj (tracks_stop Hc) (tracks_stop Ht))).
Qed.
(* token handling touches no field the invariant reads: SInv of the state after it is the same proposition *)
Lemma rw_token_SInv c t c' ps : SInv c -> rw_token c t = (c', OOk ps) -> SInv c'.
Proof.
  intros Hi E. replace c' with (fst (rw_token c t)) by (rewrite E; reflexivity). rewrite (rw_token_frame SInv); try reflexivity; [exact Hi|].
  intros c0 g Hg. unfold SInv. cbn [rset_vm r_comment r_text r_locators r_stack]. rewrite set_top_data_ids by exact Hg. reflexivity.
Qed.

Theorem scope_counts_after_successful_writes cfg c0 chunks r res :
  SInv c0 ->
  api_run rc (new_rewriter rc cfg c0) (map Write chunks) = (r, res) -> Forall (fun x => x = ROk) res ->
  SInv (d_ctl (c_disp (s_ctx (rw_stream r)))).
Proof.
  intros H0. exact (J_after_successful_writes rc SInv rw_start_tag_SInv rw_aux_info_SInv rw_end_tag_SInv rw_token_SInv
                      chunks (new_rewriter rc cfg c0) H0 eq_refl eq_refl r res).
Qed.
End Scope.
Arguments rw_start_tag_SInv {locs ncm ntx} locs_good {bcm btx c ext n h x c' r}.
Arguments rw_aux_info_SInv {locs ncm ntx} locs_good {bcm btx c ext a sc c' f}.
Arguments rw_end_tag_SInv {locs ncm ntx bcm btx c n h c' f}.

(* the two folds of new_rwc (HtmlRewriteController::from_settings), anonymous functions in the model: copied under names so that
   lemmas can speak of the folds; new_rwc_handlers unfolds the names and needs the copies to be the model's text *)
Definition sel_step (acc : list ast_node * hvec (list el_op) * hvec (list tok_op) * hvec (tx_when * list tok_op) * list locator) (sh : sel_handlers) :=
  let '(ast, el, cm, tx, locs) := acc in
  let id := length locs in
  let (el', li) := opt_push el sh.(sh_element) false in
  let (cm', lc) := opt_push cm sh.(sh_comments) false in
  let (tx', lt) := opt_push tx sh.(sh_text) false in
  (add_selector ast sh.(sh_selector) id, el', cm', tx', locs ++ [mkLoc li lc lt]).
Definition doc_step (acc : hvec (list tok_op) * hvec (list tok_op) * hvec (tx_when * list tok_op) * hvec (list chunk)) (dh : doc_handlers) :=
  let '(dt, cm, tx, en) := acc in
  (fst (opt_push dt dh.(dh_doctype) true), fst (opt_push cm dh.(dh_comments) true), fst (opt_push tx dh.(dh_text) true), fst (opt_push en dh.(dh_end) true)).

Lemma cnt_app_l {A} (v w : hvec A) i : i < length v -> cnt (v ++ w) i = cnt v i.
Proof. intros H. unfold cnt. rewrite nth_error_app1 by exact H. reflexivity. Qed.
Lemma nth_error_snoc {A} (l : list A) x : forall i, nth_error (l ++ [x]) i = if i =? length l then Some x else nth_error l i.
Proof. induction l as [|y l IH]; intros [|i]; cbn; try reflexivity; [destruct i; reflexivity | apply IH]. Qed.
Lemma cnt_snoc {A} (v : hvec A) x i : cnt (v ++ [x]) i = if i =? length v then hi_count x else cnt v i.
Proof. unfold cnt. rewrite nth_error_snoc. destruct (i =? length v); reflexivity. Qed.

Definition prefix_of {A} (v v' : hvec A) : Prop := exists w, v' = v ++ w.
Lemma prefix_of_trans {A} (u v w : hvec A) : prefix_of u v -> prefix_of v w -> prefix_of u w.
Proof. intros [a ->] [b ->]. exists (a ++ b). symmetry. apply app_assoc. Qed.
Lemma opt_push_prefix {A} (v : hvec A) h a : prefix_of v (fst (opt_push v h a)).
Proof. destruct h as [x|]; cbn; [eexists; reflexivity | exists []; symmetry; apply app_nil_r]. Qed.
Lemma opt_push_loc {A} (v : hvec A) h a i : snd (opt_push v h a) = Some i ->
  i < length (fst (opt_push v h a)) /\ cnt (fst (opt_push v h a)) i = if a then 1 else 0.
Proof.
  destruct h as [x|]; [|discriminate]. intros [= <-]. cbn [opt_push fst].
  split; [rewrite app_length, Nat.add_1_r; apply Nat.lt_succ_diag_r | rewrite cnt_snoc, Nat.eqb_refl; reflexivity].
Qed.

Definition idle {A} (sel : locator -> option nat) (locs : list locator) (v : hvec A) : Prop :=
  forall id l i, nth_error locs id = Some l -> sel l = Some i -> i < length v /\ cnt v i = 0.
Lemma idle_prefix {A sel locs} {v v' : hvec A} : prefix_of v v' -> idle sel locs v -> idle sel locs v'.
Proof.
  intros [w ->] H id l i E Ei. destruct (H id l i E Ei) as [L Z].
  split; [rewrite app_length; apply Nat.lt_lt_add_r, L | rewrite cnt_app_l by exact L; exact Z].
Qed.
Lemma idle_push {A} sel locs (v : hvec A) h : idle sel locs v ->
  forall l, sel l = snd (opt_push v h false) -> idle sel (locs ++ [l]) (fst (opt_push v h false)).
Proof.
  intros H l El id l' i E Ei. rewrite nth_error_snoc in E. destruct (id =? length locs).
  - injection E as <-. rewrite El in Ei. exact (opt_push_loc v h false i Ei).
  - exact (idle_prefix (opt_push_prefix v h false) H id l' i E Ei).
Qed.

Lemma sel_fold_ok sels : forall acc,
  (let '(_, _, cm, tx, locs) := acc in idle lc_cm locs cm /\ idle lc_tx locs tx) ->
  let '(_, _, cm, tx, locs) := fold_left sel_step sels acc in idle lc_cm locs cm /\ idle lc_tx locs tx.
Proof.
  induction sels as [|sh sels IH]; intros acc H; [exact H|]. cbn [fold_left]. apply IH.
  destruct acc as [[[[ast el] cm] tx] locs], H as [Hc Ht]. unfold sel_step.
  destruct (opt_push el (sh_element sh) false) as [el' li].
  pose proof (idle_push lc_cm locs cm (sh_comments sh) Hc) as Pc.
  pose proof (idle_push lc_tx locs tx (sh_text sh) Ht) as Pt.
  destruct (opt_push cm (sh_comments sh) false) as [cm' lc]. destruct (opt_push tx (sh_text sh) false) as [tx' lt].
  split; [apply Pc | apply Pt]; reflexivity.
Qed.

Lemma doc_fold_ok docs : forall acc,
  let '(_, cm, tx, _) := acc in let '(_, cm2, tx2, _) := fold_left doc_step docs acc in prefix_of cm cm2 /\ prefix_of tx tx2.
Proof.
  induction docs as [|dh docs IH]; intros [[[dt cm] tx] en]; cbn [fold_left]; [split; exists []; symmetry; apply app_nil_r|].
  specialize (IH (doc_step (dt, cm, tx, en) dh)). cbn [doc_step] in IH.
  destruct (fold_left doc_step docs _) as [[[dt2 cm2] tx2] en2]. destruct IH as [Ic It].
  split; eapply prefix_of_trans; [apply opt_push_prefix | exact Ic | apply opt_push_prefix | exact It].
Qed.

Lemma new_rwc_handlers sels docs bail fail isz mx c0 : c0 = new_rwc sels docs bail fail isz mx ->
  vs_items (r_stack c0) = [] /\ idle lc_cm (r_locators c0) (r_comment c0) /\ idle lc_tx (r_locators c0) (r_text c0).
Proof.
  unfold new_rwc.
  pose proof (sel_fold_ok sels ([], [], [], [], [])) as Hs. unfold sel_step in Hs.
  destruct (fold_left _ sels _) as [[[[ast el] cm] tx] locs].
  destruct Hs as (Hc & Ht); [split; intros [|id] l i [=]|].
  pose proof (doc_fold_ok docs ([], cm, tx, [])) as Hd. unfold doc_step in Hd.
  destruct (fold_left _ docs _) as [[[dt cm2] tx2] en]. destruct Hd as [Ec Et].
  intros ->. exact (conj eq_refl (conj (idle_prefix Ec Hc) (idle_prefix Et Ht))).
Qed.

Lemma new_rwc_SInv sels docs bail fail isz mx :
  let c0 := new_rwc sels docs bail fail isz mx in
  SInv (r_locators c0) (length (r_comment c0)) (length (r_text c0)) (cnt (r_comment c0)) (cnt (r_text c0)) c0
  /\ locs_ok (r_locators c0) (length (r_comment c0)) (length (r_text c0)).
Proof.
  intros c0. destruct (new_rwc_handlers sels docs bail fail isz mx c0 eq_refl) as (Hs & Hc & Ht).
  split; [|intros id l E; split; intros i Ei; [apply (Hc id l i E Ei) | apply (Ht id l i E Ei)]].
  unfold SInv. rewrite Hs. exact (conj eq_refl (conj (tracks_nil _ _ _) (tracks_nil _ _ _))).
Qed.

Lemma new_rwc_selector_scoped_inactive sels docs bail fail isz mx id l :
  let c0 := new_rwc sels docs bail fail isz mx in
  nth_error (r_locators c0) id = Some l ->
  (forall i, lc_cm l = Some i -> cnt (r_comment c0) i = 0) /\ (forall i, lc_tx l = Some i -> cnt (r_text c0) i = 0).
Proof.
  intros c0 E. destruct (new_rwc_handlers sels docs bail fail isz mx c0 eq_refl) as (_ & Hc & Ht).
  split; intros i Ei; [apply (Hc id l i E Ei) | apply (Ht id l i E Ei)].
Qed.

Theorem handler_counts_track_open_matched_elements sels docs bail fail isz cfg chunks r res :
  let c0 := new_rwc sels docs bail fail isz (st_max_mem cfg) in
  api_run rc (new_rewriter rc cfg c0) (map Write chunks) = (r, res) -> Forall (fun x => x = ROk) res ->
  let c := d_ctl (c_disp (s_ctx (rw_stream r))) in
  forall i,
    cnt (r_comment c) i = cnt (r_comment c0) i + uses (r_locators c0) lc_cm i (all_ids (vs_items (r_stack c))) /\
    cnt (r_text c) i = cnt (r_text c0) i + uses (r_locators c0) lc_tx i (all_ids (vs_items (r_stack c))).
Proof.
  intros c0 Er Hall c i.
  destruct (new_rwc_SInv sels docs bail fail isz (st_max_mem cfg)) as [H0 Hok]. fold c0 in H0, Hok.
  pose proof (scope_counts_after_successful_writes _ _ _ Hok _ _ cfg c0 chunks r res H0 Er Hall) as (_ & [_ Hc] & [_ Ht]).
  split; [apply Hc | apply Ht].
Qed.

Lemma uses_pos locs sel i ids : 0 < uses locs sel i ids <-> exists id, In id ids /\ owns locs sel i id = true.
Proof.
  unfold uses. split.
  - destruct (filter _ ids) as [|id r] eqn:E; [inversion 1|]. intros _. exists id. apply filter_In. rewrite E. apply in_eq.
  - intros [id H]. apply filter_In in H. destruct (filter _ ids); [destruct H | apply Nat.lt_0_succ].
Qed.
Lemma uses_all_ids_pos locs sel i items :
  0 < uses locs sel i (all_ids items) <-> exists it id, In it items /\ In id (ed_matched (si_data it)) /\ owns locs sel i id = true.
Proof.
  rewrite uses_pos. unfold all_ids. split.
  - intros [id [Hin Ho]]. apply in_flat_map in Hin as [it [H1 H2]]. exists it, id. auto.
  - intros (it & id & H1 & H2 & Ho). exists id. split; [apply in_flat_map; exists it; auto | exact Ho].
Qed.
Theorem scoped_handler_active_iff_matched_element_open sels docs bail fail isz cfg chunks r res :
  let c0 := new_rwc sels docs bail fail isz (st_max_mem cfg) in
  api_run rc (new_rewriter rc cfg c0) (map Write chunks) = (r, res) -> Forall (fun x => x = ROk) res ->
  let c := d_ctl (c_disp (s_ctx (rw_stream r))) in
  forall k l, nth_error (r_locators c0) k = Some l ->
    (forall i, lc_cm l = Some i ->
       (0 < cnt (r_comment c) i <-> exists it id, In it (vs_items (r_stack c)) /\ In id (ed_matched (si_data it)) /\ owns (r_locators c0) lc_cm i id = true)) /\
    (forall i, lc_tx l = Some i ->
       (0 < cnt (r_text c) i <-> exists it id, In it (vs_items (r_stack c)) /\ In id (ed_matched (si_data it)) /\ owns (r_locators c0) lc_tx i id = true)).
Proof.
  intros c0 Er Hall c k l El.
  pose proof (handler_counts_track_open_matched_elements sels docs bail fail isz cfg chunks r res Er Hall) as H. fold c0 c in H.
  destruct (new_rwc_selector_scoped_inactive sels docs bail fail isz (st_max_mem cfg) k l El) as [Zc Zt]. fold c0 in Zc, Zt.
  split; intros i Ei.
  - rewrite (proj1 (H i)), (Zc i Ei). apply uses_all_ids_pos.
  - rewrite (proj2 (H i)), (Zt i Ei). apply uses_all_ids_pos.
Qed.
