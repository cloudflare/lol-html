(* C04: the AST denotation computed incrementally along the chain, the way the VM does it:
   J = nodes that are candidates for the next element only (children of the nodes matched at the parent: the parent's
   jumps), H = nodes that are candidates for the next and every deeper element (descendant branches of the nodes matched
   at any open element, and the roots: the hereditary jumps and the entry points). *)
From LolModel Require Import Selectors.
From LolSpec Require Import CssSem.
From LolProofs Require Import AstSem.
Import ListNotations.
Open Scope nat_scope.

Definition matched (e : elem) (J H : list ast_node) : list ast_node := filter (fun b => holds e (n_pred b)) (J ++ H).
Definition fstep (JH : list ast_node * list ast_node) (e : elem) : list ast_node * list ast_node :=
  let M := matched e (fst JH) (snd JH) in (flat_map n_children M, snd JH ++ flat_map n_desc M).
Definition ids_at (e : elem) (JH : list ast_node * list ast_node) : list nat := flat_map n_ids (matched e (fst JH) (snd JH)).

Lemma den_flat_map {A} (f : A -> list ast_node) chain : forall l, den (flat_map f l) chain = flat_map (fun a => den (f a) chain) l.
Proof. induction l as [|a l IH]; cbn [flat_map]; [apply den_nil | rewrite den_app, IH; reflexivity]. Qed.
Lemma suffixes_den_app a b : forall chain i, In i (suffixes_den (a ++ b) chain) <-> In i (suffixes_den a chain) \/ In i (suffixes_den b chain).
Proof.
  induction chain as [|e r IH]; intros i; cbn [suffixes_den]; [cbn; tauto|].
  rewrite !in_app_iff, den_app, in_app_iff, IH. split; intros [[H|H]|[H|H]]; auto.
Qed.
Lemma suffixes_den_flat_map {A} (f : A -> list ast_node) chain i : forall l,
  In i (suffixes_den (flat_map f l) chain) <-> exists a, In a l /\ In i (suffixes_den (f a) chain).
Proof.
  induction l as [|a l IH]; cbn [flat_map].
  - rewrite suffixes_nil. cbn. split; [tauto | intros [a [[] _]]].
  - rewrite suffixes_den_app, IH. split.
    + intros [H|[a' [H1 H2]]]; [exists a; cbn; auto | exists a'; cbn; auto].
    + intros [a' [[<-|H1] H2]]; [left; exact H2 | right; exists a'; auto].
Qed.

(* at the first element of a chain, the candidates J for it alone and H for every element count alike: what they report
   at the last element comes from the nodes matched at the first *)
Lemma den_matched J H e rest i : In i (den J (e :: rest)) \/ In i (suffixes_den H (e :: rest)) <->
  (exists b, In b (matched e J H) /\
             In i (match rest with [] => n_ids b | _ => den (n_children b) rest ++ suffixes_den (n_desc b) rest end)) \/
  In i (suffixes_den H rest).
Proof.
  cbn [suffixes_den]. rewrite in_app_iff, <- or_assoc, <- in_app_iff, <- den_app. apply or_iff_compat_r.
  unfold matched. cbn [den]. rewrite in_flat_map. split; intros [b [Hb Hi]]; exists b.
  - destruct (holds e (n_pred b)) eqn:Hp; [|destruct Hi]. rewrite filter_In. auto.
  - apply filter_In in Hb. destruct Hb as [Hb ->]. auto.
Qed.

Theorem frontier_is_denotation : forall s JH x i,
  (In i (den (fst JH) (s ++ [x])) \/ In i (suffixes_den (snd JH) (s ++ [x]))) <-> In i (ids_at x (fold_left fstep s JH)).
Proof.
  induction s as [|e r IH]; intros [J H] x i; cbn [fst snd app fold_left]; rewrite den_matched.
  - unfold ids_at. rewrite in_flat_map. cbn. split; [intros [Hi|[]]; exact Hi | auto].
  - rewrite <- IH. unfold fstep. cbn [fst snd]. fold (matched e J H).
    rewrite den_flat_map, in_flat_map, suffixes_den_app, suffixes_den_flat_map.
    destruct (r ++ [x]) eqn:E; [destruct r; discriminate|]. rewrite <- E. clear E. split.
    + intros [[b [Hb Hi]]|Hi]; [apply in_app_or in Hi; destruct Hi | ]; eauto.
    + intros [[b [Hb Hi]]|[Hi|[b [Hb Hi]]]]; [left; exists b | auto | left; exists b]; rewrite in_app_iff; auto.
Qed.
Corollary den_any_is_frontier root anc x i :
  In i (den_any root (anc ++ [x])) <-> In i (ids_at x (fold_left fstep anc ([], root))).
Proof. unfold den_any. rewrite <- frontier_is_denotation. cbn [fst snd]. rewrite den_nil. cbn. tauto. Qed.
