(* C13 (content written by handlers): UTF-8 byte fragments written to a StreamingHandlerSink are stitched back together --
   for every way of cutting a valid UTF-8 string into fragments, every write succeeds and the output is the string. *)
From LolModel Require Import TextDecoder Rewriter StreamSink.
From LolProofs Require Import TokenLaws Utf8Decoder.
From Coq Require Import Lia ZifyBool.
Import ListNotations.
Open Scope nat_scope.

(* the UTF-8 machine without outputs: None when a step is malformed *)
Fixpoint u8_adv (s : u8state) (inp : bytes) : option u8state :=
  match inp with
  | [] => Some s
  | b :: r => let '(s1, _, bad) := u8_step s b in if bad then None else u8_adv s1 r
  end.
Lemma adv_app : forall x y s, u8_adv s (x ++ y) = match u8_adv s x with Some t => u8_adv t y | None => None end.
Proof.
  induction x as [|b x IH]; intros y s; cbn [app u8_adv]; [reflexivity|].
  destruct (u8_step s b) as [[s1 o] bad]. destruct bad; [reflexivity | apply IH].
Qed.
(* s is a partial character, possibly empty: fed s from the start, the machine holds s. A run from [] holds the unfinished
   tail of the bytes consumed (reach_step), so reach st reads: the bytes written so far are valid UTF-8 up to the partial
   character st. *)
Definition reach (s : u8state) : Prop := u8_adv [] s = Some s.

(* what an unfinished character looks like: a lead byte that announces a width not reached yet *)
Definition pending (s : u8state) : Prop :=
  match s with [] => True | l :: _ => length s < utf8_width l <= 4 /\ is_lead l = true end.
(* the table in u8_need against leading_ones, checked for each of the 51 lead bytes: the width read off the lead byte, at first
   and again later in a longer character, is its number of leading ones, from 2 to 4; the next byte has to be a continuation byte *)
Definition lead_ok (l : N) : bool :=
  match u8_need [l] with
  | Some (t, lo, hi) => (t =? utf8_width l) && (2 <=? t) && (t <=? 4) && (128 <=? lo)%N && (hi <=? 191)%N &&
                        ((t =? 2) || (t =? if ((224 <=? l) && (l <=? 239))%N then 3 else 4))
  | None => false
  end.
Lemma lead_spec {l} : is_lead l = true ->
  exists t lo hi, u8_need [l] = Some (t, lo, hi) /\ t = utf8_width l /\ 2 <= t <= 4 /\ (128 <= lo)%N /\ (hi <= 191)%N /\
                  (2 < t -> t = if ((224 <=? l) && (l <=? 239))%N then 3 else 4).
Proof.
  intros Hl. assert (Hc : lead_ok l = true).
  { assert (Hall : forallb lead_ok (map (fun k => 194 + N.of_nat k)%N (seq 0 51)) = true) by (vm_compute; reflexivity).
    rewrite forallb_forall in Hall. apply Hall, in_map_iff. exists (N.to_nat (l - 194)).
    unfold is_lead in Hl. split; [|apply in_seq]; lia. }
  unfold lead_ok in Hc. destruct (u8_need [l]) as [[[t lo] hi]|]; [|discriminate]. exists t, lo, hi.
  split; [reflexivity | lia].
Qed.
Lemma need_pending {l tl} : is_lead l = true -> length (l :: tl) < utf8_width l ->
  exists lo hi, u8_need (l :: tl) = Some (utf8_width l, lo, hi) /\ (128 <= lo)%N /\ (hi <= 191)%N.
Proof.
  intros Hl HW. destruct (lead_spec Hl) as (t & lo & hi & Hn & -> & _ & Hlo & Hhi & Hlong). destruct tl as [|x r]; [exists lo, hi; auto|].
  exists 128%N, 191%N. split; [|split; reflexivity]. rewrite Hlong by (cbn [length] in HW; clear - HW; lia).
  cbn [u8_need]. destruct ((224 <=? l) && (l <=? 239))%N; reflexivity.
Qed.
Lemma pending_step {s b s1 o} : pending s -> u8_step s b = (s1, o, false) ->
  pending s1 /\ match s with
                | [] => is_cont b = false
                | l :: _ => is_cont b = true /\ (s1 = [] -> utf8_width l = S (length s))
                end.
Proof.
  (* with nothing pending the byte starts a character (ASCII, or a lead that becomes pending); otherwise need_pending gives
     the range the byte must lie in, all of it continuation bytes, and the character is complete exactly at its width *)
  intros P E. unfold u8_step in E. destruct s as [|l tl].
  - unfold u8_start in E. unfold is_cont. destruct (b <? 128)%N eqn:Eb; [injection E as <- _; split; [exact I | lia]|].
    destruct (is_lead b) eqn:El; [|discriminate]. injection E as <- _.
    split; [|unfold is_lead in El; lia]. destruct (lead_spec El) as (t & _ & _ & _ & -> & Hw & _). split; [exact Hw | exact El].
  - destruct P as [HW Hl]. destruct (need_pending Hl (proj1 HW)) as [lo [hi [Hn [Hlo Hhi]]]]. rewrite Hn in E.
    destruct ((lo <=? b) && (b <=? hi))%N eqn:Er; [|destruct (u8_start b) as [[? ?] ?]; discriminate].
    assert (Hc : is_cont b = true) by (unfold is_cont; clear - Er Hlo Hhi; lia).
    destruct (Nat.eqb_spec (S (length (l :: tl))) (utf8_width l)) as [Eq|Ne]; injection E as <- _.
    + split; [exact I | split; [exact Hc | intros _; symmetry; exact Eq]].
    + split; [|split; [exact Hc | intros E0; destruct tl; discriminate]].
      split; [|exact Hl]. change (l :: tl ++ [b]) with ((l :: tl) ++ [b]). rewrite app_length. cbn [length] in *. clear - HW Ne. lia.
Qed.
Lemma adv_pending : forall x s s', pending s -> u8_adv s x = Some s' -> pending s'.
Proof.
  induction x as [|b x IH]; intros s s' P E; cbn [u8_adv] in E; [injection E as <-; exact P|].
  destruct (u8_step s b) as [[s1 o] bad] eqn:Es. destruct bad; [discriminate|].
  exact (IH s1 s' (proj1 (pending_step P Es)) E).
Qed.
Lemma reach_pending {s} : reach s -> pending s.
Proof. exact (adv_pending s [] s I). Qed.

Lemma scan_spec : forall inp s pos ok s', ok + length s = pos -> u8_adv s inp = Some s' ->
  u8_scan s inp pos ok = match s' with [] => U8Ok | _ => U8Err (pos + length inp - length s') true end.
Proof.
  induction inp as [|b r IH]; intros s pos ok s' Hpos Ha; cbn [u8_adv u8_scan] in *.
  - injection Ha as <-. destruct s; [reflexivity|]. f_equal. cbn [length] in *. lia.
  - destruct (u8_step s b) as [[s1 o] bad] eqn:Es. destruct bad; [discriminate|].
    assert (Hok : (match s1 with [] => S pos | _ => ok end) + length s1 = S pos).
    { destruct (step_clean Es) as [[E1 _]|[E1 _]]; rewrite E1; [cbn; lia|].
      destruct (s ++ [b]) eqn:E; [destruct s; discriminate|]. rewrite <- E, app_length. cbn. lia. }
    rewrite (IH s1 (S pos) (match s1 with [] => S pos | _ => ok end) s' Hok Ha).
    destruct s'; [reflexivity|]. f_equal. cbn [length]. lia.
Qed.
Lemma scan_bad : forall inp s pos ok, u8_adv s inp = None -> exists v, u8_scan s inp pos ok = U8Err v false.
Proof.
  induction inp as [|b r IH]; intros s pos ok Ha; cbn [u8_adv u8_scan] in *; [discriminate|].
  destruct (u8_step s b) as [[s1 o] bad]. destruct bad; [exists ok; reflexivity | apply IH; exact Ha].
Qed.
Lemma from_utf8_ok b : from_utf8 b = U8Ok <-> u8_adv [] b = Some [].
Proof.
  unfold from_utf8. destruct (u8_adv [] b) as [s|] eqn:E.
  - rewrite (scan_spec b [] 0 0 s eq_refl E). destruct s; split; (reflexivity || discriminate).
  - destruct (scan_bad b [] 0 0 E) as [v ->]. split; discriminate.
Qed.
Lemma reach_step {s b s1 o} : reach s -> u8_step s b = (s1, o, false) -> reach s1 /\ s ++ [b] = o ++ s1.
Proof.
  intros Hr Es. destruct (step_clean Es) as [[-> ->]|[-> ->]]; rewrite ?app_nil_r; split; try reflexivity.
  unfold reach. rewrite adv_app, Hr. cbn [u8_adv]. rewrite Es. reflexivity.
Qed.
Lemma adv_suffix : forall inp s s', reach s -> u8_adv s inp = Some s' -> reach s' /\ exists pre, s ++ inp = pre ++ s'.
Proof.
  induction inp as [|b r IH]; intros s s' Hr Ha; cbn [u8_adv] in Ha.
  - injection Ha as <-. split; [exact Hr | exists []; apply app_nil_r].
  - destruct (u8_step s b) as [[s1 o] bad] eqn:Es. destruct bad; [discriminate|].
    destruct (reach_step Hr Es) as [Hr1 E1]. destruct (IH s1 s' Hr1 Ha) as [Hr' [pre E]]. split; [exact Hr'|].
    exists (o ++ pre). change (b :: r) with ([b] ++ r). rewrite app_assoc, E1, <- !app_assoc, E. reflexivity.
Qed.

Lemma slice_fast {c s'} : u8_adv [] c = Some s' -> exists valid, c = valid ++ s' /\ slice_step [] c = Some (s', valid, []).
Proof.
  intros Ha. destruct (adv_suffix c [] s' eq_refl Ha) as [Hr [pre E]]. cbn [app] in E. exists pre. split; [exact E|].
  unfold slice_step, from_utf8. rewrite (scan_spec c [] 0 0 s' eq_refl Ha). destruct s' as [|l tl].
  - rewrite app_nil_r in E. subst. reflexivity.
  - destruct (reach_pending Hr) as [P _]. cbn [Nat.add].
    replace (length c - length (l :: tl)) with (length pre) by (rewrite E, app_length; lia).
    subst c. rewrite skipn_app, Nat.sub_diag, skipn_all, firstn_app, Nat.sub_diag, firstn_all. cbn [skipn firstn app]. rewrite app_nil_r.
    destruct (4 <? length (l :: tl)) eqn:E4; [apply Nat.ltb_lt in E4; lia | reflexivity].
Qed.

(* absorb moves a prefix c1 of the fragment into the buffer; the test utf8_bytes_to_slice makes on the result tells whether
   c1 completed the character *)
Lemma absorb_spec : forall c l tl s', pending (l :: tl) -> u8_adv (l :: tl) c = Some s' ->
  let '(buf, rest, must) := absorb (l :: tl) c in
  exists c1, buf = (l :: tl) ++ c1 /\ c = c1 ++ rest /\
             if must || (utf8_width l <=? length buf) then u8_adv (l :: tl) c1 = Some [] /\ u8_adv [] rest = Some s'
             else rest = [] /\ s' = buf.
Proof.
  induction c as [|b r IH]; intros l tl s' P Ha; cbn [u8_adv] in Ha.
  - cbn [absorb]. exists []. rewrite app_nil_r. destruct P as [[P _] _]. rewrite (proj2 (Nat.leb_gt _ _) P).
    injection Ha as <-. cbn [orb]. auto.
  - destruct (u8_step (l :: tl) b) as [[s1 o] bad] eqn:Es. destruct bad; [discriminate|].
    destruct (pending_step P Es) as [P1 [Hc Hw]].
    assert (Hab : absorb (l :: tl) (b :: r) = absorb (l :: tl ++ [b]) r).
    { cbn [absorb]. rewrite Hc. destruct P as [P _]. rewrite (proj2 (Nat.ltb_lt _ _)) by (clear - P; lia). reflexivity. }
    rewrite Hab.
    destruct (step_clean Es) as [[-> _]|[-> _]].
    + (* the character is complete: the next byte, if any, starts another and is no continuation byte *)
      assert (Hr : absorb (l :: tl ++ [b]) r = (l :: tl ++ [b], r, match r with [] => false | _ => true end)).
      { destruct r as [|b2 r2]; [reflexivity|]. cbn [absorb u8_adv] in *.
        destruct (u8_step [] b2) as [[s2 o2] bad2] eqn:E2. destruct bad2; [discriminate|].
        rewrite (proj2 (pending_step (s := []) I E2)). reflexivity. }
      rewrite Hr, (Hw eq_refl). cbn [length]. rewrite app_length, Nat.add_1_r, Nat.leb_refl, orb_true_r.
      exists [b]. cbn [u8_adv]. rewrite Es. auto.
    + specialize (IH l (tl ++ [b]) s' P1 Ha). destruct (absorb (l :: tl ++ [b]) r) as [[buf rest] must].
      destruct IH as (c1 & -> & -> & H). exists (b :: c1). split; [cbn [app]; rewrite <- app_assoc; reflexivity|]. split; [reflexivity|].
      destruct (must || _); [|exact H]. split; [|apply H]. cbn [u8_adv]. rewrite Es. apply H.
Qed.

Lemma write_nil f st acc : write_chunk f st [] acc = (Some st, acc).
Proof. destruct f; reflexivity. Qed.
Lemma write_cons f st b c acc :
  write_chunk (S f) st (b :: c) acc = match slice_step st (b :: c) with
                                      | None => (None, acc)
                                      | Some (st', valid, rest) => write_chunk f st' rest (match valid with [] => acc | _ => acc ++ [valid] end)
                                      end.
Proof. reflexivity. Qed.
Lemma concat_piece (acc : list bytes) v : List.concat (match v with [] => acc | _ => acc ++ [v] end) = List.concat acc ++ v.
Proof. destruct v; [symmetry; apply app_nil_r|]. rewrite concat_app. cbn [List.concat]. rewrite app_nil_r. reflexivity. Qed.
Lemma write_fast f acc {c s'} : u8_adv [] c = Some s' ->
  exists ps, write_chunk (S f) [] c acc = (Some s', ps) /\ List.concat ps ++ s' = List.concat acc ++ c.
Proof.
  intros Ha. destruct c as [|b0 c0]; [injection Ha as <-; exists acc; auto|].
  destruct (slice_fast Ha) as [valid [E Hs]]. rewrite write_cons, Hs, write_nil. eexists. split; [reflexivity|].
  rewrite concat_piece, E, app_assoc. reflexivity.
Qed.
Lemma write_spec {st c s'} : reach st -> u8_adv st c = Some s' ->
  exists ps, write_chunk 3 st c [] = (Some s', ps) /\ List.concat ps ++ s' = st ++ c.
Proof.
  intros Hr Ha. destruct st as [|l tl]; [exact (write_fast 2 [] Ha)|].
  destruct c as [|b0 c0]; [injection Ha as <-; exists []; rewrite app_nil_r; auto|].
  rewrite write_cons. set (c := b0 :: c0) in *. unfold slice_step.
  pose proof (absorb_spec c l tl s' (reach_pending Hr) Ha) as H. destruct (absorb (l :: tl) c) as [[buf rest] must].
  destruct H as (c1 & -> & -> & H). destruct (must || _).
  - (* the buffered character is completed and flushed, the rest goes the fast way *)
    destruct H as [A1 A2]. rewrite (proj2 (from_utf8_ok _)) by (rewrite adv_app, Hr; exact A1).
    destruct (write_fast 1 [(l :: tl) ++ c1] A2) as [ps [Hw2 Hc]]. exists ps.
    split; [exact Hw2 | rewrite Hc; cbn [List.concat]; rewrite app_nil_r, <- app_assoc; reflexivity].
  - (* still unfinished: everything stays buffered *)
    destruct H as [-> ->]. rewrite write_nil, app_nil_r. exists []. auto.
Qed.
Lemma write_fails_only_on_invalid st c ps : reach st -> write_chunk 3 st c [] = (None, ps) -> u8_adv st c = None.
Proof.
  intros Hr Hw. destruct (u8_adv st c) as [s'|] eqn:Ha; [|reflexivity].
  destruct (write_spec Hr Ha) as [ps' [E _]]. rewrite E in Hw. discriminate.
Qed.

Lemma emit_app ct a b : sk_emit ct (a ++ b) = sk_emit ct a ++ sk_emit ct b.
Proof. unfold sk_emit, encode_chunk. cbn [fst snd]. destruct ct; [reflexivity | apply escape_body_text_app]. Qed.
Lemma emit_concat ct ps : List.concat (map (sk_emit ct) ps) = sk_emit ct (List.concat ps).
Proof. induction ps as [|p ps IH]; cbn [map List.concat]; [destruct ct; reflexivity | rewrite IH, emit_app; reflexivity]. Qed.

Theorem fragments_are_stitched ct : forall frags st, reach st -> u8_adv st (List.concat frags) = Some [] ->
  exists outs, sink_run st (map (fun f => SkUtf8 f ct) frags) = map (fun o => (true, o)) outs /\
               List.concat outs = sk_emit ct (st ++ List.concat frags).
Proof.
  induction frags as [|f fs IH]; intros st Hr Ha; cbn [List.concat map sink_run] in *.
  - injection Ha as ->. exists []. split; [reflexivity | destruct ct; reflexivity].
  - rewrite adv_app in Ha. destruct (u8_adv st f) as [s1|] eqn:H1; [|discriminate].
    destruct (write_spec Hr H1) as [ps [Hw Hc]]. destruct (adv_suffix f st s1 Hr H1) as [Hr1 _].
    destruct (IH s1 Hr1 Ha) as [outs [Hrun Ho]].
    exists (List.concat (map (sk_emit ct) ps) :: outs). unfold sink_step. rewrite Hw. cbn [map List.concat]. rewrite Hrun. split; [reflexivity|].
    rewrite Ho, emit_concat, <- emit_app, app_assoc, Hc, <- app_assoc. reflexivity.
Qed.
Theorem utf8_fragments_written_to_a_sink_are_the_string ct frags :
  from_utf8 (List.concat frags) = U8Ok ->
  exists outs, sink_run [] (map (fun f => SkUtf8 f ct) frags) = map (fun o => (true, o)) outs /\ List.concat outs = sk_emit ct (List.concat frags).
Proof.
  intros Hv. apply from_utf8_ok in Hv. exact (fragments_are_stitched ct frags [] eq_refl Hv).
Qed.
