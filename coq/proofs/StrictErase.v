(* C03: a strict-mode run that never reports a parsing ambiguity is, step for step, the non-strict run: erasing the guard
   and the strict flag from the tree-builder simulator commutes with every function of the machine. *)
From LolModel Require Import Machine.
From LolProofs Require Import MachineFacts.
Open Scope nat_scope.

Definition us (s : sim) : sim := mkSim (ns_stack s) (cur_ns s) GDefault false.
Lemma us_us s : us (us s) = us s. Proof. reflexivity. Qed.
Lemma us_enter s n : enter_ns (us s) n = (us (fst (enter_ns s n)), snd (enter_ns s n)).
Proof. reflexivity. Qed.
Lemma us_leave s : leave_ns (us s) = (us (fst (leave_ns s)), snd (leave_ns s)).
Proof. unfold leave_ns. cbn [us ns_stack cur_ns guard strict]. destruct (tl (ns_stack s)); reflexivity. Qed.
Lemma us_leave_foreign s : leave_foreign (us s) = (us (fst (leave_foreign s)), snd (leave_foreign s)).
Proof. exact (us_leave (mkSim (drop_foreign (ns_stack s)) (cur_ns s) (guard s) (strict s))). Qed.
Lemma us_fb_start_foreign s h : fb_start_foreign (us s) h = (us (fst (fb_start_foreign s h)), snd (fb_start_foreign s h)).
Proof.
  unfold fb_start_foreign. change (is_ip_enter (us s) h) with (is_ip_enter s h). change (cur_ns (us s)) with (cur_ns s).
  destruct (causes_foreign_content_exit h); [apply us_leave_foreign|].
  destruct (is_ip_enter s h); [reflexivity|]. destruct (tt_at _ 0 h); [reflexivity|]. destruct (_ && _); reflexivity.
Qed.
Lemma us_fb_start {s h s' f} : fb_start s h = Some (s', f) -> fb_start (us s) h = Some (us s', f).
Proof.
  unfold fb_start. cbn [us strict guard ns_stack cur_ns].
  destruct (if strict s then guard_track_start (guard s) h else Some (guard s)) as [g|]; [|discriminate].
  intros [= E]. apply (f_equal (fun x => (us (fst x), snd x))) in E. cbn [fst snd] in E. rewrite <- E. f_equal.
  change (mkSim (ns_stack s) (cur_ns s) GDefault false) with (us (mkSim (ns_stack s) (cur_ns s) g (strict s))).
  destruct (tt_at _ 0 h); [apply us_enter|]. destruct (tt_at _ 1 h); [apply us_enter|].
  destruct (negb _); [apply us_fb_start_foreign | reflexivity].
Qed.
Lemma us_check_ip_exit s h : check_ip_exit (us s) h = (us (fst (check_ip_exit s h)), snd (check_ip_exit s h)).
Proof.
  unfold check_ip_exit. cbn [us ns_stack]. destruct (ns_stack s) as [|a [|prev r]]; try reflexivity.
  destruct (_ || _); [apply us_leave|]. destruct (_ && _); reflexivity.
Qed.
Lemma us_fb_end s h : fb_end (us s) h = (us (fst (fb_end s h)), snd (fb_end s h)).
Proof.
  unfold fb_end. cbn [us strict].
  set (s1 := if strict s then _ else s). replace (us s) with (us s1) by (unfold s1; destruct (strict s); reflexivity).
  change (cur_ns (us s1)) with (cur_ns s1). change (should_leave_ns (us s1) h) with (should_leave_ns s1 h).
  destruct (ns_eqb (cur_ns s1) Html); [apply us_check_ip_exit|].
  destruct (should_leave_ns s1 h); [|reflexivity]. destruct (tt_at _ 2 h); [apply us_leave_foreign | apply us_leave].
Qed.
Lemma us_run_request part k s t : run_request part k (us s) t = (us (fst (run_request part k s t)), snd (run_request part k s t)).
Proof.
  destruct k, t; cbn [run_request]; try reflexivity.
  - destruct self_closing; [reflexivity | apply us_enter].
  - destruct (existsb _ attrs); [apply us_leave_foreign | reflexivity].
  - destruct (negb self_closing && _); [|reflexivity]. destruct (existsb _ attrs); [apply us_enter | reflexivity].
  - destruct (eq_ci _ _); [apply us_leave | reflexivity].
Qed.

Section Parse.
Context {C : Type} (ctl : controller C).
Notation ctx := (@ctx C).
Notation act_res := (@act_res C).
Definition uc (c : ctx) : ctx := mkCtx (us (c_sim c)) (c_disp c).
Definition map_a (r : act_res) : act_res :=
  match r with AOk m c => AOk m (uc c) | ASwitch d b m c => ASwitch d b m (uc c) | AErr e c => AErr e (uc c) | APanic k c => APanic k (uc c) end.
Definition amb_a (r : act_res) : Prop := match r with AErr (ParsingAmbiguity _) _ => True | _ => False end.

Variable input : bytes.
Variable base : nat.
Notation l_emit_nontag := (l_emit_nontag ctl input base).
Notation l_emit_text := (l_emit_text ctl input base).
Notation l_emit_eof := (l_emit_eof ctl input base).
Notation l_emit_tag := (l_emit_tag ctl input base).
Notation lexer_action := (lexer_action ctl input base).

Lemma e_of_dres s m (r : @dres C (@disp C)) : of_dres_ctx (us s) m r = map_a (of_dres_ctx s m r).
Proof. destruct r; reflexivity. Qed.
Lemma e_nontag l c e t : l_emit_nontag l (uc c) e t = map_a (l_emit_nontag l c e t).
Proof. unfold Machine.l_emit_nontag. cbn [uc c_sim c_disp]. apply e_of_dres. Qed.
Lemma e_text l c : l_emit_text l (uc c) = map_a (l_emit_text l c).
Proof. unfold Machine.l_emit_text. destruct (_ <? _); [apply e_nontag | reflexivity]. Qed.
Lemma e_eof l c : l_emit_eof l (uc c) = map_a (l_emit_eof l c).
Proof. apply e_nontag. Qed.
Lemma e_then r k : (forall l c, k l (uc c) = map_a (k l c)) -> then_lexer (map_a r) k = map_a (then_lexer r k).
Proof. intros H. destruct r as [m c| | |]; try reflexivity. destruct m; [apply H | reflexivity]. Qed.
Lemma e_apply_feedback : forall fuel fb s t ltt cd,
  apply_feedback input fuel fb (us s) t ltt cd = (let '(s', a, b) := apply_feedback input fuel fb s t ltt cd in (us s', a, b)).
Proof.
  induction fuel as [|f IH]; intros fb s t ltt cd; destruct fb; cbn [apply_feedback]; try reflexivity.
  rewrite us_run_request. destruct (run_request _ k s t) as [s' fb']. cbn [fst snd]. apply IH.
Qed.
(* both machines ask the simulator first: it refuses on the strict side, or the erased side gets the erased answer and goes on with it *)
Lemma e_asked {A} (x' x : option (sim * A)) (k : sim -> A -> act_res) h c :
  match x with Some (s1, a) => x' = Some (us s1, a) | None => True end ->
  (forall s1 a, k (us s1) a = map_a (k s1 a)) ->
  match x' with Some (s1, a) => k s1 a | None => AErr (ParsingAmbiguity h) (uc c) end =
    map_a (match x with Some (s1, a) => k s1 a | None => AErr (ParsingAmbiguity h) c end)
  \/ amb_a (match x with Some (s1, a) => k s1 a | None => AErr (ParsingAmbiguity h) c end).
Proof. intros Hx Hk. destruct x as [[s1 a]|]; [left; rewrite Hx; apply Hk | right; exact I]. Qed.
Lemma e_feedback_opt fbo s t ltt cd :
  match fbo with Some f => apply_feedback input 2 f (us s) t ltt cd | None => (us s, ltt, cd) end =
  let '(s', a, b) := match fbo with Some f => apply_feedback input 2 f s t ltt cd | None => (s, ltt, cd) end in (us s', a, b).
Proof. destruct fbo; [apply e_apply_feedback | reflexivity]. Qed.
Lemma e_tag l c : l_emit_tag l (uc c) = map_a (l_emit_tag l c) \/ amb_a (l_emit_tag l c).
Proof.
  unfold Machine.l_emit_tag. destruct (b_tag (l_build l)) as [t|]; [|left; reflexivity].
  cbn [uc c_sim c_disp]. apply e_asked.
  - destruct (b_fd (l_build l)); [reflexivity | reflexivity |]. destruct t as [n h x a sc|n h].
    + destruct (fb_start (c_sim c) h) as [[s' f]|] eqn:E; [|exact I]. cbn [option_map fst snd]. rewrite (us_fb_start E). reflexivity.
    + rewrite us_fb_end. destruct (fb_end (c_sim c) h) as [s' f]. reflexivity.
  - intros s1 fbo. rewrite e_feedback_opt. destruct (match fbo with Some _ => _ | None => _ end) as [[s2 ltt] cd].
    destruct t; cbn [us cur_ns]; destruct (handle_tag ctl input base _ _ _) as [[d' []]| |]; reflexivity.
Qed.
Lemma e_lexer_action a l c : lexer_action a l (uc c) = map_a (lexer_action a l c) \/ amb_a (lexer_action a l c).
Proof.
  destruct a; unfold Machine.lexer_action;
    first [ left; reflexivity | left; apply e_text | left; apply e_nontag
          | left; rewrite e_text; apply e_then; exact e_eof | left; rewrite e_nontag; apply e_then; exact e_eof
          | apply e_tag | left; destruct (b_tag (l_build l)) as [[]|]; reflexivity ].
Qed.

Notation s_finish_tag_name := (s_finish_tag_name ctl input).
Notation scanner_action := (scanner_action ctl input).
Lemma e_finish_tag_name s c : s_finish_tag_name s (uc c) = map_a (s_finish_tag_name s c) \/ amb_a (s_finish_tag_name s c).
Proof.
  unfold Machine.s_finish_tag_name. destruct (tag_start (s_tag s)) as [tstart|]; [|left; reflexivity].
  cbn [uc c_sim c_disp]. apply e_asked.
  - destruct (is_in_end_tag (s_tag s)).
    + rewrite us_fb_end. destruct (fb_end (c_sim c) (tag_name_hash (s_tag s))) as [s' f]. reflexivity.
    + destruct (fb_start (c_sim c) (tag_name_hash (s_tag s))) as [[s' f]|] eqn:E; [exact (us_fb_start E) | exact I].
  - intros s1 fb. destruct (match fb with FbNone => _ | _ => _ end) as [[t1 md1] [u|]]; [reflexivity|].
    destruct (is_in_end_tag (s_tag s)); cbn [us cur_ns];
      match goal with |- context [match ?hr with DOk _ => _ | DErr _ _ => _ | DPanic _ _ => _ end] => destruct hr as [[d' []]| |] end; reflexivity.
Qed.
Lemma e_scanner_action a s c : scanner_action a s (uc c) = map_a (scanner_action a s c) \/ amb_a (scanner_action a s c).
Proof. destruct a; unfold Machine.scanner_action; try (left; reflexivity). apply e_finish_tag_name. Qed.

Notation do_action := (do_action ctl input base).
Notation do_actions := (do_actions ctl input base).
Lemma e_do_action a m c : do_action a m (uc c) = map_a (do_action a m c) \/ amb_a (do_action a m c).
Proof. destruct m; [apply e_lexer_action | apply e_scanner_action]. Qed.
Lemma e_do_actions : forall acts m c, do_actions acts m (uc c) = map_a (do_actions acts m c) \/ amb_a (do_actions acts m c).
Proof.
  induction acts as [|a r IH]; intros m c; cbn [Machine.do_actions]; [left; reflexivity|].
  destruct (e_do_action a m c) as [E|A].
  - rewrite E. destruct (do_action a m c) as [m' c'| | |]; cbn [map_a]; [apply IH | left; reflexivity ..].
  - right. destruct (do_action a m c) as [m' c'| |e c'|]; try contradiction. exact A.
Qed.

Notation arm_out := (@arm_out C).
Notation body_out := (@body_out C).
Notation loop_res := (@loop_res C).
Notation parse_res := (@parse_res C).
Definition map_r (r : arm_out) : arm_out :=
  match r with Continue m c => Continue m (uc c) | Return m c => Return m (uc c) | Switch d b m c => Switch d b m (uc c)
             | ArmErr e c => ArmErr e (uc c) | ArmPanic k c => ArmPanic k (uc c) end.
Definition amb_r (r : arm_out) : Prop := match r with ArmErr (ParsingAmbiguity _) _ => True | _ => False end.
Definition map_b (r : body_out) : body_out :=
  match r with BContinue m c => BContinue m (uc c) | BBreak m c => BBreak m (uc c) | BSwitch d b m c => BSwitch d b m (uc c)
             | BErr e c => BErr e (uc c) | BPanic k c => BPanic k (uc c) end.
Definition amb_b (r : body_out) : Prop := match r with BErr (ParsingAmbiguity _) _ => True | _ => False end.
Definition map_l (r : loop_res) : loop_res :=
  match r with LEnd m c n => LEnd m (uc c) n | LSwitch d b m c => LSwitch d b m (uc c) | LErr e c => LErr e (uc c)
             | LPanic k c => LPanic k (uc c) | LFuel c => LFuel (uc c) end.
Definition amb_l (r : loop_res) : Prop := match r with LErr (ParsingAmbiguity _) _ => True | _ => False end.
Definition map_p (r : parse_res) : parse_res :=
  match r with POk p c n => POk p (uc c) n | PErr e c => PErr e (uc c) | PPanic k c => PPanic k (uc c) | PFuel c => PFuel (uc c) end.
Definition amb_p (r : parse_res) : Prop := match r with PErr (ParsingAmbiguity _) _ => True | _ => False end.

Notation run_alist := (run_alist ctl input base).
Notation try_seq_arms := (try_seq_arms ctl input base).
Notation try_arms := (try_arms ctl input base).
Notation body_iter := (body_iter ctl input base).
Notation run_loop := (run_loop ctl input base).
Notation parse_loop := (parse_loop ctl input base).

Lemma e_transition tr m c : do_transition tr m (uc c) = map_r (do_transition tr m c).
Proof. destruct tr; reflexivity. Qed.
Lemma e_run_alist : forall al m c, run_alist al m (uc c) = map_r (run_alist al m c) \/ amb_r (run_alist al m c).
Proof.
  induction al as [acts tr|cd t IHt e IHe]; intros m c; cbn [Machine.run_alist].
  - destruct (e_do_actions acts m c) as [E|A].
    + rewrite E. left. destruct (do_actions acts m c); cbn [map_a]; [apply e_transition | reflexivity ..].
    + right. destruct (do_actions acts m c) as [| |e c'|]; try contradiction. exact A.
  - destruct (eval_cond cd m); [apply IHt | apply IHe].
Qed.
Lemma e_of_arm o : of_arm (map_r o) = map_b (of_arm o).
Proof. destruct o; reflexivity. Qed.
Lemma amb_of_arm o : amb_r o -> amb_b (of_arm o).
Proof. destruct o; cbn; auto. Qed.
Lemma e_try_seq_arms : forall arms ch m c,
  (try_seq_arms arms ch m (uc c) = (fst (try_seq_arms arms ch m c), option_map map_b (snd (try_seq_arms arms ch m c))))
  \/ match snd (try_seq_arms arms ch m c) with Some o => amb_b o | None => False end.
Proof.
  induction arms as [|[p al] r IH]; intros ch m c; cbn [Machine.try_seq_arms]; [left; reflexivity|].
  destruct p as [| | | | | | |bsq ic|]; try apply IH.
  destruct (seq_match input bsq ic ch m) as [m'|m'|m'].
  - destruct (e_run_alist al m' c) as [E|A].
    + left. rewrite E, e_of_arm. reflexivity.
    + right. cbn [snd]. apply amb_of_arm. exact A.
  - left. reflexivity.
  - apply IH.
Qed.
Lemma e_arm_body p m c o' o : o' = map_r o \/ amb_r o -> arm_body p m (uc c) o' = map_b (arm_body p m c o) \/ amb_b (arm_body p m c o).
Proof.
  intros [->|A].
  - left. destruct p; cbn [arm_body]; try apply e_of_arm; [|destruct (is_last m); [|reflexivity]]; destruct o; reflexivity.
  - destruct o as [| | |[] c'|]; try contradiction.
    (* at the end of the input that is not the last, the eof arm is not run: nothing to refuse *)
    destruct p; cbn [arm_body]; try (right; exact I). destruct (is_last m); [right; exact I | left; reflexivity].
Qed.
Lemma e_try_arms : forall arms ch m c, try_arms arms ch m (uc c) = map_b (try_arms arms ch m c) \/ amb_b (try_arms arms ch m c).
Proof.
  induction arms as [|[p al] r IH]; intros ch m c; [left; reflexivity|]. rewrite !try_arms_cons.
  destruct (pat_matches p ch m); [apply e_arm_body, e_run_alist | apply IH].
Qed.
Lemma e_body_iter sd m c : body_iter sd m (uc c) = map_b (body_iter sd m c) \/ amb_b (body_iter sd m c).
Proof.
  unfold Machine.body_iter. destruct (memchr_of (sd_arms sd)).
  - destruct (find_from input n (next_pos m) (S (length input))); apply e_try_arms.
  - destruct (e_try_seq_arms (sd_arms sd) (getb input (next_pos m)) (set_pos m (S (next_pos m))) c) as [E|A].
    + rewrite E. destruct (try_seq_arms _ _ _ c) as [m'' [o|]]; cbn [fst snd option_map]; [left; reflexivity | apply e_try_arms].
    + right. destruct (try_seq_arms _ _ _ c) as [m'' [o|]]; cbn [snd] in A; [exact A | contradiction].
Qed.

Notation enter_state := (enter_state ctl input base).
Lemma e_enter_state m c : enter_state m (uc c) = map_a (enter_state m c) \/ amb_a (enter_state m c).
Proof.
  unfold MachineFacts.enter_state. destruct (m_entered (mode_of m)); [left; reflexivity|].
  destruct (sd_enter (table (m_st (mode_of m)))) as [|a acts]; [left; reflexivity|].
  destruct (e_do_actions (a :: acts) (set_pos m (S (next_pos m))) c) as [E|A].
  - left. rewrite E. destruct (do_actions _ _ c); reflexivity.
  - right. destruct (do_actions _ _ c) as [| |e c'|]; try contradiction. exact A.
Qed.
Lemma e_run_loop : forall fuel m c, run_loop fuel m (uc c) = map_l (run_loop fuel m c) \/ amb_l (run_loop fuel m c).
Proof.
  induction fuel as [|f IH]; intros m c; [left; reflexivity|]. rewrite !run_loop_S.
  destruct (e_enter_state m c) as [E|A].
  - rewrite E. destruct (enter_state m c) as [m1 c1|d b m' c'|e c'|k c']; cbn [map_a]; try (left; reflexivity).
    destruct (e_body_iter (table (m_st (mode_of m))) m1 c1) as [E2|A2].
    + rewrite E2. destruct (body_iter _ m1 c1) as [m2 c2|m2 c2|d b m2 c2|e c2|k c2]; cbn [map_b]; try (left; reflexivity).
      * apply IH.
      * left. unfold MachineFacts.end_of_chunk. cbv zeta. destruct (_ <=? _); reflexivity.
    + right. destruct (body_iter _ m1 c1) as [| | |e c2|]; try contradiction. exact A2.
  - right. destruct (enter_state m c) as [| |e c'|]; try contradiction. exact A.
Qed.
Lemma e_parse_loop : forall fuel p c last start, parse_loop fuel p (uc c) last start = map_p (parse_loop fuel p c last start) \/ amb_p (parse_loop fuel p c last start).
Proof.
  induction fuel as [|f IH]; intros p c last start; cbn [Machine.parse_loop]; [left; reflexivity|].
  set (m1 := set_last _ last). destruct (e_run_loop (loop_fuel input) m1 c) as [E|A].
  - rewrite E. destruct (run_loop _ m1 c) as [m c' n|d b m c'|e c'|k c'|c']; cbn [map_l]; try (left; reflexivity). apply IH.
  - right. destruct (run_loop _ m1 c) as [| |e c'| |]; try contradiction. exact A.
Qed.
End Parse.

Section Stream.
Context {C : Type} (ctl : controller C).
Notation stream := (@stream C).
Definition ust (s : stream) : stream :=
  mkS (s_parser s) (uc (s_ctx s)) (s_arena s) (s_has_buf s) (s_prev s) (s_max_mem s) (s_bail_mem s) (s_bail_handler s).
Definition amb_c (r : call_res) : Prop := match r with CErr (ParsingAmbiguity _) => True | _ => False end.

Lemma e_with_disp s d : with_disp (ust s) d = ust (with_disp s d).
Proof. reflexivity. Qed.
Lemma e_bail s d e fl : bail ctl (ust s) d e fl = (ust (fst (bail ctl s d e fl)), snd (bail ctl s d e fl)).
Proof. unfold bail. change (should_bail_out_for (ust s) e) with (should_bail_out_for s e). destruct (should_bail_out_for s e); reflexivity. Qed.

(* what write and finish do with the parser's result; fl is what a bail-out flushes, k the successful case *)
Definition parsed (s : stream) (fl : list bytes) (k : parser -> @ctx C -> nat -> stream * call_res) (r : @parse_res C) : stream * call_res :=
  match r with
  | POk p c n => k p c n
  | PErr e c => bail ctl s (c_disp c) e fl
  | PPanic j c => (with_disp s (c_disp c), CPanic j)
  | PFuel c => (with_disp s (c_disp c), CPanic 99)
  end.
Lemma e_parsed s fl k r' r :
  r' = map_p r \/ amb_p r -> (forall p c n, k p (uc c) n = (ust (fst (k p c n)), snd (k p c n))) ->
  parsed (ust s) fl k r' = (ust (fst (parsed s fl k r)), snd (parsed s fl k r)) \/ amb_c (snd (parsed s fl k r)).
Proof.
  intros [->|A] Hk.
  - left. destruct r as [p c n|e c|j c|c]; [apply Hk | apply e_bail | reflexivity | reflexivity].
  - right. destruct r as [|[] c| |]; try contradiction. cbn [parsed]. rewrite (bail_err ctl). exact I.
Qed.

Lemma e_write s data : write ctl (ust s) data = (ust (fst (write ctl s data)), snd (write ctl s data)) \/ amb_c (snd (write ctl s data)).
Proof.
  unfold write. cbn [ust s_ctx s_has_buf s_arena s_max_mem s_parser s_prev s_bail_mem s_bail_handler uc c_disp c_sim].
  destruct (if s_has_buf s then _ else _) as [ar1 ok].
  (* the erased stream stands computed in the goal: e_bail and e_parsed are given a constructor form, to which ust computes *)
  destruct ok; cbn [negb]; [|left; apply (e_bail (mkS _ _ _ _ _ _ _ _))].
  apply (e_parsed (mkS _ _ _ _ _ _ _ _)).
  - exact (e_parse_loop ctl _ _ _ _ (mkCtx _ _) _ _).
  - intros p c n. cbn [uc c_disp c_sim]. destruct (n <? _); [|reflexivity]. destruct (s_has_buf s); [reflexivity|].
    destruct (arena_init_with ar1 _ (s_max_mem s) (skipn n data)) as [ar2 [|]]; [reflexivity|].
    apply (e_bail (mkS _ (mkCtx _ _) _ _ _ _ _ _)).
Qed.
Lemma e_finish s : finish ctl (ust s) = (ust (fst (finish ctl s)), snd (finish ctl s)) \/ amb_c (snd (finish ctl s)).
Proof.
  unfold finish. cbn [ust s_ctx s_has_buf s_arena s_max_mem s_parser s_prev s_bail_mem s_bail_handler uc c_disp c_sim].
  apply (e_parsed s).
  - exact (e_parse_loop ctl _ _ _ _ (mkCtx _ _) _ _).
  - intros p c n. cbn [uc c_disp c_sim]. destruct (c_end ctl _) as [[c' pieces] [e|]]; reflexivity.
Qed.

Definition urw (r : @rewriter C) : @rewriter C := mkRw (ust (rw_stream r)) (rw_poisoned r) (rw_ended r).
Definition not_amb (x : api_res) : Prop := match x with RErr (ParsingAmbiguity _) => False | _ => True end.
Lemma e_api_step r op : not_amb (snd (api_step ctl r op)) -> api_step ctl (urw r) op = (urw (fst (api_step ctl r op)), snd (api_step ctl r op)).
Proof.
  unfold api_step. cbn [urw rw_ended rw_poisoned rw_stream]. destruct (rw_ended r); [reflexivity|]. destruct (rw_poisoned r); [reflexivity|].
  destruct op as [d|];
    [generalize (e_write (rw_stream r) d); destruct (write ctl (rw_stream r) d) as [s' res]
    |generalize (e_finish (rw_stream r)); destruct (finish ctl (rw_stream r)) as [s' res]];
    cbn [fst snd]; (intros [->|A]; [destruct res; reflexivity | destruct res as [|[]|]; contradiction]).
Qed.
Lemma e_api_run : forall ops r, Forall not_amb (snd (api_run ctl r ops)) ->
  api_run ctl (urw r) ops = (urw (fst (api_run ctl r ops)), snd (api_run ctl r ops)).
Proof.
  induction ops as [|o rest IH]; intros r H; cbn [api_run] in *; [reflexivity|].
  pose proof (e_api_step r o) as Hs. pose proof (IH (fst (api_step ctl r o))) as Hr.
  destruct (api_step ctl r o) as [r1 x]. cbn [fst snd] in *. destruct (api_run ctl r1 rest) as [r2 xs]. cbn [fst snd] in *.
  rewrite (Hs (Forall_inv H)), (Hr (Forall_inv_tail H)). reflexivity.
Qed.

Definition unstrict_cfg (cfg : settings) : settings :=
  mkSettings false (st_max_mem cfg) (st_prealloc cfg) (st_bail_mem cfg) (st_bail_handler cfg) (st_encoding cfg).
Lemma e_new cfg c0 : new_rewriter ctl (unstrict_cfg cfg) c0 = urw (new_rewriter ctl cfg c0).
Proof. reflexivity. Qed.

(* a run that never reports ParsingAmbiguity -- in particular a successful strict run -- is the non-strict run: all but guard and flag agree *)
Theorem strict_run_without_ambiguity_is_the_non_strict_run cfg c0 ops :
  Forall not_amb (snd (api_run ctl (new_rewriter ctl cfg c0) ops)) ->
  api_run ctl (new_rewriter ctl (unstrict_cfg cfg) c0) ops =
  (urw (fst (api_run ctl (new_rewriter ctl cfg c0) ops)), snd (api_run ctl (new_rewriter ctl cfg c0) ops)).
Proof. intros H. rewrite e_new. apply e_api_run. exact H. Qed.
Corollary strict_success_same_sink_and_controller cfg c0 ops r res r' res' :
  api_run ctl (new_rewriter ctl cfg c0) ops = (r, res) -> Forall (fun x => x = ROk) res ->
  api_run ctl (new_rewriter ctl (unstrict_cfg cfg) c0) ops = (r', res') ->
  res' = res /\ rw_sink r' = rw_sink r /\ d_ctl (c_disp (s_ctx (rw_stream r'))) = d_ctl (c_disp (s_ctx (rw_stream r))).
Proof.
  intros E Hok E'. pose proof (strict_run_without_ambiguity_is_the_non_strict_run cfg c0 ops) as H. rewrite E in H. cbn [fst snd] in H.
  rewrite H in E'; [|eapply Forall_impl; [|exact Hok]; intros x ->; exact I]. injection E' as <- <-. auto.
Qed.
End Stream.
