(* Token-level laws of the level-2 model: mutations and serialisation (C07), escaping (C08), and what set_attribute and
   remove_attribute do to the attribute list (C07, C16; the lookup laws of C16 are in AttrApi.v). *)
From LolModel Require Import Rewriter.
From Coq Require Import Lia.
Open Scope nat_scope.

Lemma escape_body_text_app a b : escape_body_text (a ++ b) = escape_body_text a ++ escape_body_text b.
Proof. induction a as [|c r IH]; cbn [escape_body_text app]; [reflexivity|]. rewrite IH, app_assoc. reflexivity. Qed.
Definition is_lt_gt (c : N) : bool := ((c =? 60) || (c =? 62))%N.
Theorem escape_body_text_no_markup s : forallb (fun c => negb (is_lt_gt c)) (escape_body_text s) = true.
Proof.
  induction s as [|c r IH]; cbn [escape_body_text]; [reflexivity|]. rewrite forallb_app, IH, andb_true_r.
  destruct (c =? 60)%N eqn:E1; [reflexivity|]. destruct (c =? 62)%N eqn:E2; [reflexivity|]. destruct (c =? 38)%N; [reflexivity|].
  cbn [forallb]. unfold is_lt_gt. rewrite E1, E2. reflexivity.
Qed.
(* the inverse: decoding the three character references gives the text back *)
Fixpoint unescape (fuel : nat) (s : bytes) : bytes :=
  match fuel with
  | O => s
  | S f =>
      match s with
      | [] => []
      | 38%N :: 108%N :: 116%N :: 59%N :: r => 60%N :: unescape f r            (* &lt; *)
      | 38%N :: 103%N :: 116%N :: 59%N :: r => 62%N :: unescape f r            (* &gt; *)
      | 38%N :: 97%N :: 109%N :: 112%N :: 59%N :: r => 38%N :: unescape f r    (* &amp; *)
      | c :: r => c :: unescape f r
      end
  end.
(* no reference starts at a byte other than '&' *)
Lemma unescape_other f c r : c <> 38%N -> unescape (S f) (c :: r) = c :: unescape f r.
Proof.
  intros Hc. destruct c as [|p]; [reflexivity|].
  (* '&' is 100110b: six binary digits decide *)
  do 6 (destruct p as [p|p|]; try reflexivity). contradiction Hc. reflexivity.
Qed.
Theorem unescape_escape_body_text s : forall fuel, length s <= fuel -> unescape fuel (escape_body_text s) = s.
Proof.
  induction s as [|c r IH]; intros fuel Hf; [destruct fuel; reflexivity|].
  destruct fuel as [|f]; [cbn in Hf; lia|]. cbn in Hf. specialize (IH f ltac:(lia)). cbn [escape_body_text].
  destruct (N.eqb_spec c 60); [subst; cbn; rewrite IH; reflexivity|].
  destruct (N.eqb_spec c 62); [subst; cbn; rewrite IH; reflexivity|].
  destruct (N.eqb_spec c 38); [subst; cbn; rewrite IH; reflexivity|].
  cbn [app]. rewrite unescape_other, IH by assumption. reflexivity.
Qed.
Theorem escape_double_quotes_no_quote s : forallb (fun c => negb (c =? 34)%N) (escape_double_quotes s) = true.
Proof.
  induction s as [|c r IH]; cbn [escape_double_quotes]; [reflexivity|]. rewrite forallb_app, IH, andb_true_r.
  destruct (c =? 34)%N eqn:E; [reflexivity|]. cbn [forallb]. rewrite E. reflexivity.
Qed.

Theorem serialize_with_shape m self :
  serialize_with (Some m) self = encode_chunks m.(mu_before) ++ (if m.(mu_removed) then encode_chunks m.(mu_repl) else self) ++ encode_chunks m.(mu_after).
Proof. reflexivity. Qed.
Theorem serialize_unmutated self : serialize_with None self = self.
Proof. reflexivity. Qed.
(* before() appends, after() prepends, replace() overwrites and removes, remove() keeps insertions *)
Theorem before_accumulates m c1 c2 : mu_before (mget (m_before (m_before m c1) c2)) = mu_before (mget m) ++ [c1; c2].
Proof. destruct m; cbn; rewrite <- ?app_assoc; reflexivity. Qed.
Theorem after_accumulates m c1 c2 : mu_after (mget (m_after (m_after m c1) c2)) = c2 :: c1 :: mu_after (mget m).
Proof. destruct m; reflexivity. Qed.
Theorem replace_overwrites m c1 c2 :
  mu_repl (mget (m_replace (m_replace m c1) c2)) = [c2] /\ mu_removed (mget (m_replace (m_replace m c1) c2)) = true
  /\ mu_before (mget (m_replace m c1)) = mu_before (mget m) /\ mu_after (mget (m_replace m c1)) = mu_after (mget m).
Proof. destruct m; cbn; auto. Qed.
Theorem remove_keeps_insertions m :
  mu_removed (mget (m_remove m)) = true /\ mu_before (mget (m_remove m)) = mu_before (mget m) /\ mu_after (mget (m_remove m)) = mu_after (mget m).
Proof. destruct m; cbn; auto. Qed.
(* an untouched start tag is emitted verbatim; a modified one keeps every untouched attribute byte for byte *)
Theorem start_tag_verbatim t raw : stt_raw t = Some raw -> stt_mut t = None -> serialize_start_tag t = [raw].
Proof. intros H1 H2. unfold serialize_start_tag. rewrite H1, H2. reflexivity. Qed.
Theorem untouched_attribute_verbatim a raw : at_raw a = Some raw -> serialize_attr a = raw.
Proof. intro H. unfold serialize_attr. rewrite H. reflexivity. Qed.
Lemma find_none_iff {A} (f : A -> bool) l : find f l = None <-> Forall (fun y => f y = false) l.
Proof.
  rewrite Forall_forall. split; [apply find_none|]. intros H. destruct (find f l) as [x|] eqn:E; [|reflexivity].
  apply find_some in E as [Hin Hx]. rewrite (H x Hin) in Hx. discriminate.
Qed.
Lemma find_app_none {A} (f : A -> bool) l1 l2 : find f l1 = None -> find f (l1 ++ l2) = find f l2.
Proof. induction l1 as [|x l IH]; cbn; [reflexivity|]. destruct (f x); [discriminate | exact IH]. Qed.
Lemma set_attr_spec {t n v t'} : stt_set_attr t n v = inl t' ->
  let m := attr_matches (lower_bytes n) in
  attr_name_check (lower_bytes n) = None /\
  ((exists pre a post, stt_attrs t = pre ++ a :: post /\ Forall (fun x => m x = false) pre /\ m a = true /\
                       stt_attrs t' = pre ++ mkAt (at_name a) v None None :: post) \/
   (Forall (fun x => m x = false) (stt_attrs t) /\ stt_attrs t' = stt_attrs t ++ [mkAt (lower_bytes n) v None None])).
Proof.
  unfold stt_set_attr. destruct (attr_name_check (lower_bytes n)); [discriminate|].
  match goal with |- context [let (l', found) := ?f (stt_attrs t) in _] => set (upd := f) end.
  set (m := attr_matches (lower_bytes n)).
  assert (Hupd : forall l,
    (exists pre a post, l = pre ++ a :: post /\ Forall (fun x => m x = false) pre /\ m a = true /\
                        upd l = (pre ++ mkAt (at_name a) v None None :: post, true)) \/
    (Forall (fun x => m x = false) l /\ upd l = (l, false))).
  { induction l as [|a r IH]; [right; split; [constructor | reflexivity]|]. cbn. fold m. destruct (m a) eqn:Ea.
    - left. exists [], a, r. auto.
    - destruct IH as [(pre & a0 & post & -> & Hp & Ha & ->)|[Hp ->]]; [left; exists (a :: pre), a0, post | right]; auto. }
  destruct (Hupd (stt_attrs t)) as [(pre & a & post & E & Hp & Ha & ->)|[Hp ->]]; intros [= <-]; (split; [reflexivity|]).
  - left. exists pre, a, post. auto.
  - right. auto.
Qed.
Lemma set_attr_keeps_others_raw t n v t' :
  stt_set_attr t n v = inl t' ->
  forall a, In a (stt_attrs t) -> attr_matches (lower_bytes n) a = false -> In a (stt_attrs t').
Proof.
  intros E a Hin Hm. destruct (set_attr_spec E) as [_ [(pre & a0 & post & Et & _ & Ha & ->)|[_ ->]]]; apply in_or_app.
  - rewrite Et in Hin. apply in_app_or in Hin as [Hin|[->|Hin]]; [left; exact Hin | congruence | right; right; exact Hin].
  - left. exact Hin.
Qed.

Lemma eq_ci_lower_refl n : eq_ci (lower_bytes n) (lower_bytes n) = true.
Proof.
  unfold lower_bytes. induction n as [|c r IH]; cbn [map eq_ci]; [reflexivity|]. rewrite IH, andb_true_r.
  unfold lower at 1. destruct (is_upper (lower c)) eqn:E; [|apply N.eqb_refl].
  unfold lower in E. destruct (is_upper c) eqn:E2; unfold is_upper in *; [|congruence].
  apply andb_true_iff in E as [E3 E4]. apply andb_true_iff in E2 as [E5 E6].
  apply N.leb_le in E3, E4, E5, E6. lia.
Qed.
Theorem get_after_set t n v t' :
  stt_set_attr t n v = inl t' -> stt_get_attr t' n = Some v.
Proof.
  intros E. destruct (set_attr_spec E) as [Hc H]. unfold stt_get_attr. rewrite Hc.
  destruct H as [(pre & a & post & _ & Hp & Ha & ->)|[Hp ->]]; rewrite find_app_none by (apply find_none_iff, Hp);
    cbn [find]; unfold attr_matches in *; cbn [at_name].
  - rewrite Ha. reflexivity.
  - rewrite eq_ci_lower_refl. reflexivity.
Qed.
Lemma filter_len_le {A} (f : A -> bool) l : length (filter f l) <= length l.
Proof. induction l as [|x l IH]; cbn; [lia|]. destruct (f x); cbn; lia. Qed.
Lemma filter_same_length {A} (f : A -> bool) l : length (filter f l) = length l -> filter f l = l.
Proof.
  induction l as [|x l IH]; cbn; [reflexivity|]. destruct (f x); cbn; intro El.
  - f_equal. apply IH. lia.
  - pose proof (filter_len_le f l). lia.
Qed.
Lemma remove_attr_attrs t n : attr_name_check (lower_bytes n) = None ->
  stt_attrs (stt_remove_attr t n) = filter (fun a => negb (attr_matches (lower_bytes n) a)) (stt_attrs t).
Proof.
  intros Hc. unfold stt_remove_attr. rewrite Hc. destruct (_ =? _) eqn:El; [|reflexivity].
  (* nothing removed: no attribute matched *)
  symmetry. apply filter_same_length, Nat.eqb_eq, El.
Qed.
Theorem has_after_remove t n : attr_name_check (lower_bytes n) = None -> stt_get_attr (stt_remove_attr t n) n = None.
Proof.
  intro Hc. unfold stt_get_attr. rewrite Hc, (remove_attr_attrs t n Hc), (proj2 (find_none_iff _ _)); [reflexivity|].
  apply Forall_forall. intros x Hx. apply filter_In in Hx as [_ Hx]. apply negb_true_iff, Hx.
Qed.
