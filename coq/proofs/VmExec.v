(* C04: executing compiled instructions = one step of the AST frontier.  Section VM: an execution as a fold of add_branch
   over the instructions whose test succeeds, and its effect on the execution context.  Section Repr: the representation
   relation between AST nodes and instructions (what Compiler::compile_nodes lays out). *)
From LolModel Require Import Selectors.
From LolProofs Require Import Bailout AstSem Frontier.
From Coq Require Import List.
Import ListNotations.
Open Scope nat_scope.

Lemma union_sorted_in a b i : In i (union_sorted a b) <-> In i a \/ In i b.
Proof.
  unfold union_sorted. revert b. induction a as [|x a IH]; intros b; cbn [fold_left]; [cbn; tauto|].
  rewrite IH, insert_sorted_in. cbn. split; [intros [H|[->|H]]; auto | intros [[->|H]|H]; auto].
Qed.
Lemma forall2_filter {A B} (R : A -> B -> Prop) f g : forall l l', Forall2 R l l' -> (forall a b, R a b -> f a = g b) -> Forall2 R (filter f l) (filter g l').
Proof.
  induction 1 as [|a b l l' H1 H IH]; intros Hfg; cbn [filter]; [constructor|].
  rewrite (Hfg a b H1). destruct (g b); [constructor; [exact H1|] |]; apply IH; exact Hfg.
Qed.
Lemma in_flat_map_iff {A B} {f : A -> list B} {l l'} : (forall a, In a l <-> In a l') -> forall y, In y (flat_map f l) <-> In y (flat_map f l').
Proof. intros H y. rewrite !in_flat_map. split; intros [a [Ha Hy]]; exists a; (split; [apply H; exact Ha | exact Hy]). Qed.

Section VM.
Variable prog : program.
Variable stk : vstack.
Variable attrs : list attr_view.
Notation at_ := (instr_at prog).

(* the test of one instruction on the element being matched (None = the panic of expect()) *)
Definition ptest (c : ectx) (p : predicate) : option bool :=
  match all_tag (build_state stk c.(ec_item).(si_name)) c.(ec_item).(si_name) p.(p_tag) with
  | None => None
  | Some true => Some (all_attr attrs (ns_eqb c.(ec_ns) Html) p.(p_attr))
  | Some false => Some false
  end.
Lemma ptest_add_branch c i p : ptest (add_branch c i) p = ptest c p.
Proof. unfold ptest. pose proof (add_branch_sig c i) as E. injection E as -> _ _ ->. reflexivity. Qed.

Lemma exec_set_spec (t : predicate -> bool) : forall l c c', (forall p b, ptest c p = Some b -> t p = b) ->
  exec_set prog stk l attrs c = Some c' -> c' = fold_left add_branch (filter (fun i => t (i_pred i)) (map at_ l)) c.
Proof.
  induction l as [|a r IH]; intros c c' Ht E; cbn [exec_set map filter] in *; [injection E as <-; reflexivity|].
  pose proof (Ht (i_pred (at_ a))) as Ha. unfold ptest in Ha.
  destruct (all_tag _ _ _) as [[|]|]; [destruct (all_attr _ _ _)| |discriminate]; rewrite (Ha _ eq_refl); cbn [fold_left]; apply IH; try assumption.
  intros p b. rewrite ptest_add_branch. apply Ht.
Qed.

Definition optr (o : option range) : list range := match o with Some r => [r] | None => [] end.
Lemma add_branches_effect : forall M c, let c' := fold_left add_branch M c in
  (forall x, In x (ed_matched (si_data (ec_item c'))) <-> In x (ed_matched (si_data (ec_item c))) \/ In x (flat_map i_ids M)) /\
  si_jumps (ec_item c') = si_jumps (ec_item c) ++ (if ec_with_content c then flat_map (fun i => optr (i_jumps i)) M else []) /\
  si_hjumps (ec_item c') = si_hjumps (ec_item c) ++ (if ec_with_content c then flat_map (fun i => optr (i_hjumps i)) M else []).
Proof.
  induction M as [|i M IH]; intros c; cbn [fold_left flat_map].
  - destruct (ec_with_content c); rewrite !app_nil_r; (repeat split; auto; intros [H|[]]; exact H).
  - destruct (IH (add_branch c i)) as [Hm [Hj Hh]]. cbn zeta. rewrite Hj, Hh. split; [intros x; rewrite Hm, in_app_iff|];
      unfold add_branch; destruct (ec_with_content c); cbn [ec_item ec_with_content si_data si_jumps si_hjumps ed_matched].
    + rewrite union_sorted_in. apply or_assoc.
    + rewrite union_sorted_in. apply or_assoc.
    + rewrite <- !app_assoc. auto.
    + auto.
Qed.
End VM.

Section Repr.
Variable prog : program.
Notation at_ := (instr_at prog).

Fixpoint rnode (n : ast_node) (i : instr) {struct n} : Prop :=
  match n with
  | Node p ch ds ids =>
      i_pred i = p /\ i_ids i = ids /\
      match ch with
      | [] => i_jumps i = None
      | _ => exists r, i_jumps i = Some r /\ re r = rs r + length ch /\
             (fix rl (l : list ast_node) (a : nat) : Prop := match l with [] => True | x :: l' => rnode x (at_ a) /\ rl l' (S a) end) ch (rs r)
      end /\
      match ds with
      | [] => i_hjumps i = None
      | _ => exists r, i_hjumps i = Some r /\ re r = rs r + length ds /\
             (fix rl (l : list ast_node) (a : nat) : Prop := match l with [] => True | x :: l' => rnode x (at_ a) /\ rl l' (S a) end) ds (rs r)
      end
  end.
Definition rlist : list ast_node -> nat -> Prop :=
  fix rl (l : list ast_node) (a : nat) : Prop := match l with [] => True | x :: l' => rnode x (at_ a) /\ rl l' (S a) end.
Definition rrange (r : range) (bs : list ast_node) : Prop := re r = rs r + length bs /\ rlist bs (rs r).
Definition jrep (ch : list ast_node) (oj : option range) : Prop :=
  match ch with [] => oj = None | _ => exists r, oj = Some r /\ rrange r ch end.
Lemma rnode_eq n i : rnode n i <-> i_pred i = n_pred n /\ i_ids i = n_ids n /\ jrep (n_children n) (i_jumps i) /\ jrep (n_desc n) (i_hjumps i).
Proof. destruct n. reflexivity. Qed.

Lemma rlist_cons b r pos : rlist (b :: r) pos <-> rnode b (at_ pos) /\ rlist r (S pos).
Proof. reflexivity. Qed.
Lemma rlist_forall2 : forall bs a, rlist bs a <-> Forall2 rnode bs (map at_ (seq a (length bs))).
Proof.
  induction bs as [|b bs IH]; intros a; cbn [length seq map].
  - split; [constructor | exact (fun _ => I)].
  - rewrite rlist_cons, IH. split; [intros [H1 H2]; constructor; assumption | intros H; inversion H; subst; auto].
Qed.
Lemma rrange_instrs {r bs} : rrange r bs -> Forall2 rnode bs (map at_ (addrs_of r 0)).
Proof.
  intros [H1 H2]. unfold addrs_of. rewrite Nat.add_0_r, H1, (Nat.add_comm (rs r)), Nat.add_sub. apply rlist_forall2. exact H2.
Qed.

Definition Reps (rl : list range) (ns : list ast_node) : Prop := exists nss, Forall2 rrange rl nss /\ forall b, In b ns <-> In b (concat nss).
Lemma Reps_ext {rl ns ns'} : (forall b, In b ns <-> In b ns') -> Reps rl ns -> Reps rl ns'.
Proof. intros H [nss [F M]]. exists nss. split; [exact F|]. intros b. rewrite <- H. apply M. Qed.
Lemma Reps_nil : Reps [] [].
Proof. exists []. split; [constructor | reflexivity]. Qed.
Lemma Reps_one {r bs} : rrange r bs -> Reps [r] bs.
Proof. intros H. exists [bs]. split; [constructor; [exact H | constructor]|]. cbn [concat]. rewrite app_nil_r. reflexivity. Qed.
Lemma Reps_app {rl ns rl' ns'} : Reps rl ns -> Reps rl' ns' -> Reps (rl ++ rl') (ns ++ ns').
Proof.
  intros [nss [F M]] [nss' [F' M']]. exists (nss ++ nss'). split; [apply Forall2_app; assumption|].
  intros b. rewrite concat_app, !in_app_iff, M, M'. reflexivity.
Qed.
Lemma Reps_instrs {rl ns} : Reps rl ns -> exists nodes, Forall2 rnode nodes (map at_ (addrs rl)) /\ forall b, In b ns <-> In b nodes.
Proof.
  intros [nss [F M]]. exists (concat nss). split; [|exact M]. clear M.
  induction F as [|r bs rl nss H1 _ IH]; cbn [concat addrs flat_map]; [constructor|].
  rewrite map_app. apply Forall2_app; [apply rrange_instrs; exact H1 | exact IH].
Qed.
Lemma jrep_reps ch oj : jrep ch oj -> Reps (optr oj) ch.
Proof. unfold jrep. destruct ch; [intros ->; exact Reps_nil | intros [r [-> Hr]]; exact (Reps_one Hr)]. Qed.
Lemma jumps_reps : forall {M Mi}, Forall2 rnode M Mi ->
  Reps (flat_map (fun i => optr (i_jumps i)) Mi) (flat_map n_children M) /\
  Reps (flat_map (fun i => optr (i_hjumps i)) Mi) (flat_map n_desc M) /\
  flat_map i_ids Mi = flat_map n_ids M.
Proof.
  induction 1 as [|b i M Mi H1 _ [IJ [IH II]]]; cbn [flat_map]; [split; [exact Reps_nil | split; [exact Reps_nil | reflexivity]]|].
  apply rnode_eq in H1. destruct H1 as [_ [Hi [Hj Hh]]]. split; [|split].
  - apply Reps_app; [apply jrep_reps; exact Hj | exact IJ].
  - apply Reps_app; [apply jrep_reps; exact Hh | exact IH].
  - rewrite Hi, II. reflexivity.
Qed.

Variable stk : vstack.
Variable attrs : list attr_view.
(* an element without content (void, self-closing) records no jumps: nothing is matched below it *)
Theorem exec_all_is_frontier_step {c c' e JH} :
  Reps (all_sets prog stk) (fst JH ++ snd JH) ->
  exec_all_with_attrs prog stk c attrs = Some c' ->
  (forall p b, ptest stk attrs c p = Some b -> holds e p = b) ->
  ed_matched (si_data (ec_item c)) = [] -> si_jumps (ec_item c) = [] -> si_hjumps (ec_item c) = [] ->
  let M := matched e (fst JH) (snd JH) in
  Reps (si_jumps (ec_item c')) (if ec_with_content c then flat_map n_children M else []) /\
  Reps (si_hjumps (ec_item c')) (if ec_with_content c then flat_map n_desc M else []) /\
  forall x, In x (ed_matched (si_data (ec_item c'))) <-> In x (ids_at e JH).
Proof.
  (* the execution is a fold of add_branch over the instructions whose test holds; the tests decide `holds e`, so these
     instructions represent exactly the matched nodes M, and what add_branch collects from them represents what M offers *)
  intros HR E Hview Hm0 Hj0 Hh0 M. rewrite exec_all_flat in E. apply (exec_set_spec prog stk attrs (holds e)) in E; [|exact Hview]. subst c'.
  destruct (Reps_instrs HR) as [nodes [HF Hn]].
  apply (forall2_filter _ (fun b => holds e (n_pred b)) (fun i => holds e (i_pred i))) in HF;
    [|intros b i Hr; apply rnode_eq in Hr; destruct Hr as [-> _]; reflexivity].
  assert (Hsame : forall b, In b (filter (fun b => holds e (n_pred b)) nodes) <-> In b M).
  { intros b. unfold M, matched. rewrite !filter_In, Hn. reflexivity. }
  destruct (jumps_reps HF) as [RJ [RH RI]].
  destruct (add_branches_effect (filter (fun i => holds e (i_pred i)) (map at_ (addrs (all_sets prog stk)))) c) as [Hm [Hj Hh]].
  rewrite Hj, Hh, Hj0, Hh0. split; [|split].
  - destruct (ec_with_content c); [exact (Reps_ext (in_flat_map_iff Hsame) RJ) | exact Reps_nil].
  - destruct (ec_with_content c); [exact (Reps_ext (in_flat_map_iff Hsame) RH) | exact Reps_nil].
  - intros x. rewrite Hm, Hm0, RI. cbn [In]. rewrite (in_flat_map_iff Hsame). split; [intros [[]|H]; exact H | auto].
Qed.
End Repr.
