(* Frame theorem: if the primitive updates and the controller's answers respect R (on success) and E (on error, panic),
   so does every function of the machine, between the dispatcher state before and after.
   SinkProtocol.v takes E := R; OkPath below, R d d' := I d -> I d' and E := True: a failure poisons the rewriter. *)
From LolModel Require Import Machine.
From LolProofs Require Import MachineFacts.
Open Scope nat_scope.

Section Frame.
Context {C : Type} (ctl : controller C).
Notation disp := (@disp C).
Variables R E : disp -> disp -> Prop.
Hypothesis R_refl : forall d, R d d.
Hypothesis R_trans : forall a b c, R a b -> R b c -> R a c.
Hypothesis RE1 : forall a b, R a b -> E a b.
Hypothesis E_trans : forall a b c, E a b -> E b c -> E a c.
Hypothesis R_push : forall d b, b <> [] -> R d (sink_push d b).
Hypothesis R_rcs : forall d v, R d (d_with_rcs d v).
Hypothesis R_flags : forall d v, R d (d_with_flags d v).
Hypothesis R_emission : forall d v, R d (d_with_emission d v).
Hypothesis R_hint : forall d v, R d (d_with_hint d v).
Hypothesis R_req : forall d v, R d (d_with_req d v).
Hypothesis R_td : forall d p s, R d (d_with_td d p s).
Hypothesis R_tt : forall d v, R d (d_with_tt d v).
Hypothesis R_ext : forall d v, R d (d_with_ext d v).
Hypothesis R_start : forall d n h x c' r, c_start_tag ctl (d_ctl d) (d_ext_usage d) n h x = (c', r) ->
  match r with SErr _ => E d (d_with_ctl d c') | _ => R d (d_with_ctl d c') end.
Hypothesis R_aux : forall d a sc c' r, c_aux_info ctl (d_ctl d) (d_ext_usage d) a sc = (c', r) ->
  match r with FOk _ => R d (d_with_ctl d c') | FErr _ => E d (d_with_ctl d c') end.
Hypothesis R_endtag : forall d n h c' f, c_end_tag ctl (d_ctl d) n h = (c', f) -> R d (d_with_ctl d c').
Hypothesis R_token : forall d t c' r, c_token ctl (d_ctl d) t = (c', r) ->
  match r with OOk _ => R d (d_with_ctl d c') | OErr _ => E d (d_with_ctl d c') end.
Hypothesis R_bail : forall d e c' ps, c_bail_out ctl (d_ctl d) e = (c', ps) -> E d (d_with_ctl d c').
Hypothesis R_end : forall d c' ps r, c_end ctl (d_ctl d) = (c', ps, r) ->
  match r with None => R d (d_with_ctl d c') | Some _ => E d (d_with_ctl d c') end.

Lemma E_refl d : E d d.
Proof. apply RE1, R_refl. Qed.
Lemma RE a b c : R a b -> E b c -> E a c.
Proof. intro H. apply E_trans, RE1, H. Qed.
Lemma R_push_nonempty d b : R d (sink_push_nonempty d b).
Proof. destruct b; cbn; [apply R_refl | apply R_push; discriminate]. Qed.
Lemma R_emit d (b : bool) x v : R d (d_with_rcs (if b then sink_push_nonempty d x else d) v).
Proof. destruct b; [eapply R_trans; [apply R_push_nonempty | apply R_rcs] | apply R_rcs]. Qed.
Lemma R_fold {X} (step : disp -> X -> disp) : (forall d x, R d (step d x)) -> forall l d, R d (fold_left step l d).
Proof. intros H l. induction l as [|x l IH]; intro d; cbn; [apply R_refl|]. eapply R_trans; [apply H | apply IH]. Qed.
Lemma R_pieces ps d : R d (sink_pieces d ps).
Proof. apply (R_fold _ R_push_nonempty). Qed.

Definition dR {A} (proj : A -> disp) (d : disp) (r : dres A) : Prop :=
  match r with DOk a => R d (proj a) | DErr _ d' | DPanic _ d' => E d d' end.
Notation dR1 := (dR (fun x : disp => x)).
Notation dR2 := (dR (fun x : disp * directive => fst x)).

Lemma dR_weaken {A} {proj : A -> disp} {d0 d r} : R d0 d -> dR proj d r -> dR proj d0 r.
Proof. intro H. destruct r; first [exact (R_trans _ _ _ H) | exact (RE _ _ _ H)]. Qed.
Lemma dR_bind {B} (proj : B -> disp) d (r : dres disp) (k : disp -> dres B) :
  dR1 d r -> (forall d1, dR proj d1 (k d1)) ->
  dR proj d (match r with DOk d1 => k d1 | DErr e x => DErr e x | DPanic n x => DPanic n x end).
Proof. intros H Hk. destruct r as [d1| |]; [exact (dR_weaken H (Hk d1)) | exact H | exact H]. Qed.
Lemma dR_let_pair {X B} (proj : B -> disp) d (p : disp * X) (k : disp -> X -> dres B) :
  R d (fst p) -> (forall d1 x, dR proj d1 (k d1 x)) -> dR proj d (let (d1, x) := p in k d1 x).
Proof. intros H Hk. destruct p as [d1 x]. exact (dR_weaken H (Hk d1 x)). Qed.

Section Chunk.
Variable input : bytes.
Variable base : nat.

Lemma emit_chunk_before_R d raw : dR1 d (emit_chunk_before_lexeme input d raw).
Proof. unfold emit_chunk_before_lexeme. destruct (_ && _); [apply R_emit | apply E_refl]. Qed.
Lemma token_produced_R d t : dR1 d (token_produced ctl d t).
Proof.
  unfold token_produced. destruct (c_token ctl (d_ctl d) t) as [c' r] eqn:Q. apply R_token in Q. destruct r; cbn; [|exact Q].
  destruct (d_emission _); [eapply R_trans; [exact Q | apply R_pieces] | exact Q].
Qed.
Lemma flush_pending_text_R d : dR1 d (flush_pending_text ctl d).
Proof.
  unfold flush_pending_text. destruct (d_td_pending d); [|apply R_refl].
  apply dR_bind; [apply token_produced_R | intro d1; apply R_td].
Qed.
Lemma feed_text_R d ty raw : dR1 d (feed_text ctl input base d ty raw).
Proof. unfold feed_text. apply dR_bind; [apply token_produced_R | intro d1; apply R_td]. Qed.
Lemma apply_hint_flags_R d f : R d (fst (apply_hint_flags d f)).
Proof. unfold apply_hint_flags; cbn. eapply R_trans; [apply R_flags | apply R_hint]. Qed.
Lemma hint_start_R d name h n : dR2 d (hint_start ctl d name h n).
Proof.
  unfold hint_start. destruct (c_start_tag _ _ _ _ _ _) as [c' r] eqn:Q. apply R_start in Q. destruct r; cbn; [| |exact Q].
  - eapply R_trans; [exact Q | apply apply_hint_flags_R].
  - eapply R_trans; [exact Q|]. eapply R_trans; [apply R_hint | apply R_req].
Qed.
Lemma hint_end_R d name h : dR2 d (hint_end ctl d name h).
Proof.
  unfold hint_end. apply dR_bind; [apply flush_pending_text_R|]. intro d0.
  destruct (c_end_tag _ _ _ _) as [c' f] eqn:Q. apply R_endtag in Q. cbn.
  eapply R_trans; [exact Q | apply apply_hint_flags_R].
Qed.
Lemma aux_info_R d a sc :
  dR1 d (let (c', r) := c_aux_info ctl (d_ctl d) (d_ext_usage d) a sc in
         match r with FOk f => DOk (d_with_flags (d_with_ctl d c') f) | FErr e => DErr e (d_with_ctl d c') end).
Proof.
  destruct (c_aux_info _ _ _ _ _) as [c' r] eqn:Q. apply R_aux in Q.
  destruct r; cbn; [eapply R_trans; [exact Q | apply R_flags] | exact Q].
Qed.
Lemma adjust_capture_flags_R d t : dR1 d (adjust_capture_flags ctl input base d t).
Proof.
  unfold adjust_capture_flags. destruct (d_pending_req d).
  - destruct t; [|apply RE1, R_req]. eapply dR_weaken; [apply R_req | apply aux_info_R].
  - destruct t.
    + destruct (c_start_tag _ _ _ _ _ _) as [c' r] eqn:Q. apply R_start in Q. destruct r; [| |exact Q].
      * eapply R_trans; [exact Q | apply R_flags].
      * eapply dR_weaken; [exact Q | apply aux_info_R].
    + destruct (c_end_tag _ _ _ _) as [c' f] eqn:Q. apply R_endtag in Q. cbn. eapply R_trans; [exact Q | apply R_flags].
Qed.
Lemma produce_token_R d raw t : dR1 d (produce_token ctl input d raw t).
Proof.
  unfold produce_token. apply dR_bind; [apply emit_chunk_before_R|]. intro d1.
  apply dR_bind; [apply token_produced_R | intro d2; apply R_rcs].
Qed.
Lemma tag_to_token_R d raw t : R d (fst (tag_to_token input base d raw t)).
Proof. unfold tag_to_token. destruct t; destruct (has_flag _ _); cbn; first [apply R_refl | apply R_flags]. Qed.

Lemma handle_tag_R d raw t : dR2 d (handle_tag ctl input base d raw t).
Proof.
  unfold handle_tag. apply dR_bind; [apply flush_pending_text_R|]. intro d0. cbv zeta.
  apply dR_bind; [destruct (d_hint d0); [apply R_hint | apply adjust_capture_flags_R]|]. intro d1.
  apply dR_let_pair.
  - eapply R_trans; [|apply tag_to_token_R].
    destruct t; [apply R_refl|]. destruct (should_stop_removing ctl d1); [|apply R_refl].
    eapply R_trans; [apply R_emission | apply R_rcs].
  - intros d3 tok. apply dR_bind; [destruct tok; [apply produce_token_R | apply R_refl]|]. intro d4. apply R_emission.
Qed.

Lemma handle_non_tag_R d raw t : dR1 d (handle_non_tag ctl input base d raw t).
Proof.
  unfold handle_non_tag.
  (* the failure branch returns the let-bound r0 itself, so dR_bind does not match *)
  set (r0 := match t with Some (TextO _) => _ | _ => _ end).
  assert (H0 : dR1 d r0) by (destruct t as [[| | |]|]; try apply flush_pending_text_R; apply R_refl).
  clearbody r0. destruct r0 as [d0| |]; [|exact H0|exact H0].
  eapply dR_weaken; [exact H0|]. clear H0.
  destruct t as [[ty|c|n p s f|]|]; try apply R_refl; (destruct (has_flag _ _); [|apply R_refl]); try apply produce_token_R.
  apply dR_bind; [apply emit_chunk_before_R|]. intro d1.
  eapply dR_weaken; [apply (R_tt _ ty)|]. apply dR_bind; [apply feed_text_R | intro d2; apply R_rcs].
Qed.

Definition aR (d : disp) (r : act_res) : Prop :=
  match r with AOk _ c' | ASwitch _ _ _ c' => R d (c_disp c') | AErr _ c' | APanic _ c' => E d (c_disp c') end.
Lemma aR_weaken {d0 d r} : R d0 d -> aR d r -> aR d0 r.
Proof. intro H. destruct r; first [exact (R_trans _ _ _ H) | exact (RE _ _ _ H)]. Qed.

Lemma of_dres_ctx_R d s m r : dR1 d r -> aR d (of_dres_ctx s m r).
Proof. destruct r; exact (fun H => H). Qed.
Lemma l_emit_nontag_R l c e t : aR (c_disp c) (l_emit_nontag ctl input base l c e t).
Proof. unfold l_emit_nontag. apply of_dres_ctx_R, handle_non_tag_R. Qed.
Lemma l_emit_text_R l c : aR (c_disp c) (l_emit_text ctl input base l c).
Proof. unfold l_emit_text. destruct (_ <? _); [apply l_emit_nontag_R | apply R_refl]. Qed.
Lemma then_lexer_R d r k : aR d r -> (forall l c', aR (c_disp c') (k l c')) -> aR d (then_lexer r k).
Proof.
  intros H Hk. destruct r as [[l|s] c'| | |]; try exact H. exact (aR_weaken H (Hk l c')).
Qed.
Lemma of_dres2_R d s (r : dres (disp * directive)) (k : disp -> directive -> act_res) :
  dR2 d r -> (forall d' dir, aR d' (k d' dir)) ->
  aR d (match r with DOk (d', dir) => k d' dir | DErr e x => AErr e (mkCtx s x) | DPanic n x => APanic n (mkCtx s x) end).
Proof. intros H Hk. destruct r as [[d' dir]| |]; [exact (aR_weaken H (Hk d' dir)) | exact H | exact H]. Qed.
Lemma l_emit_tag_R l c : aR (c_disp c) (l_emit_tag ctl input base l c).
Proof.
  unfold l_emit_tag. destruct (b_tag (l_build l)) as [t|]; [|apply E_refl].
  destruct (match b_fd (l_build l) with FdNone => _ | _ => _ end) as [[s1 fbo]|]; [|apply E_refl].
  destruct (match fbo with Some _ => _ | None => _ end) as [[s2 ltt] cd].
  destruct (match t with EndTagO _ _ => _ | _ => _ end) as [t' lh].
  apply of_dres2_R; [apply handle_tag_R|]. intros d' dir. destruct dir; apply R_refl.
Qed.

Lemma lexer_action_R a l c : aR (c_disp c) (lexer_action ctl input base a l c).
Proof.
  destruct a; cbn;
    try (apply R_refl);
    try apply l_emit_text_R; try apply l_emit_nontag_R; try apply l_emit_tag_R;
    try (apply then_lexer_R; [first [apply l_emit_text_R | apply l_emit_nontag_R] | intros; apply l_emit_nontag_R]).
  destruct (b_tag (l_build l)) as [[| ]|]; first [apply R_refl | apply E_refl].
Qed.

Lemma s_finish_tag_name_R s c : aR (c_disp c) (s_finish_tag_name ctl input s c).
Proof.
  unfold s_finish_tag_name. destruct (tag_start (s_tag s)); [|apply E_refl].
  destruct (if is_in_end_tag (s_tag s) then _ else _) as [[sim' fb]|]; [|apply E_refl].
  destruct (match fb with FbNone => _ | _ => _ end) as [[t1 md1] [u|]]; [apply R_refl|].
  destruct (is_in_end_tag (s_tag s)); (apply of_dres2_R; [first [apply hint_end_R | apply hint_start_R]|]); intros d' dir; destruct dir; apply R_refl.
Qed.
Lemma scanner_action_R a s c : aR (c_disp c) (scanner_action ctl input a s c).
Proof. destruct a; cbn; try apply R_refl. apply s_finish_tag_name_R. Qed.
Lemma do_action_R a m c : aR (c_disp c) (do_action ctl input base a m c).
Proof. destruct m; [apply lexer_action_R | apply scanner_action_R]. Qed.
Lemma run_loop_R fuel m c : lP (fun _ c' => R (c_disp c) (c_disp c')) (fun c' => E (c_disp c) (c_disp c')) (run_loop ctl input base fuel m c).
Proof.
  apply (run_loop_P ctl input base); try (intros; assumption).
  - intros _ c1. apply RE1.
  - intros bsq ic ch m1 c1 H. destruct (seq_match input bsq ic ch m1); exact H.
  - intros a m1 c1 H. exact (aR_weaken H (do_action_R a m1 c1)).
  - apply R_refl.
Qed.


Definition pR (d : disp) (r : parse_res) : Prop :=
  match r with POk _ c' _ => R d (c_disp c') | PErr _ c' | PPanic _ c' | PFuel c' => E d (c_disp c') end.
Lemma pR_weaken {d0 d r} : R d0 d -> pR d r -> pR d0 r.
Proof. intro H. destruct r; first [exact (R_trans _ _ _ H) | exact (RE _ _ _ H)]. Qed.
Lemma parse_loop_R fuel : forall p c last start, pR (c_disp c) (parse_loop ctl input base fuel p c last start).
Proof.
  induction fuel as [|f IH]; intros p c last start; cbn [parse_loop]; [apply E_refl|].
  set (m1 := set_last _ last). pose proof (run_loop_R (loop_fuel input) m1 c) as H.
  destruct (run_loop ctl input base _ m1 c); try exact H.
  exact (pR_weaken H (IH _ _ _ _)).
Qed.
End Chunk.

Lemma flush_for_bail_out_R d i : R d (flush_for_bail_out d i).
Proof. exact (R_emit d true _ 0). Qed.

Definition sdisp (s : @stream C) : disp := c_disp (s_ctx s).
Lemma bail_E s d e fl : E d (sdisp (fst (bail ctl s d e fl))).
Proof.
  unfold bail. destruct (should_bail_out_for s e); cbn; [|apply E_refl].
  unfold run_bail_out_handlers. destruct (c_bail_out _ _ _) eqn:Q. apply R_bail in Q.
  eapply E_trans; [exact Q|]. apply RE1. eapply R_trans; [apply R_pieces | apply (R_fold _ flush_for_bail_out_R)].
Qed.

Definition sR (d : disp) (x : @stream C * call_res) : Prop :=
  match snd x with COk => R d (sdisp (fst x)) | _ => E d (sdisp (fst x)) end.
Lemma bail_sR d0 s d e fl : E d0 d -> sR d0 (bail ctl s d e fl).
Proof. intro H. unfold sR. rewrite (bail_err ctl). eapply E_trans; [exact H | apply bail_E]. Qed.

Lemma parse_of_stream_R s v input base fuel last :
  pR (sdisp s) (parse_loop ctl input base fuel (s_parser s) (mkCtx (c_sim (s_ctx s)) (d_with_ext (sdisp s) v)) last None).
Proof. apply (pR_weaken (R_ext _ v)), parse_loop_R. Qed.

Lemma write_R s data : sR (sdisp s) (write ctl s data).
Proof.
  unfold write. destruct (if s_has_buf s then _ else _) as [ar1 ok].
  destruct (negb ok); [apply bail_sR, E_refl|].
  set (r := parse_loop ctl _ _ _ _ _ false None). assert (H : pR (sdisp s) r) by apply parse_of_stream_R. clearbody r.
  destruct r as [p' c' n|e c'|k c'|c']; [|apply bail_sR; exact H | exact H | exact H].
  set (d := flush_remaining_input _ _ _). assert (H' : R (sdisp s) d) by (eapply R_trans; [exact H | apply R_emit]).
  destruct (_ <? _); [|exact H'].
  destruct (s_has_buf s); [exact H'|].
  destruct (arena_init_with _ _ _ _) as [ar2 ok2].
  destruct ok2; [exact H'|]. apply bail_sR, RE1, H'.
Qed.

(* the finalizing empty chunk is no step of R (R_push wants data): a successful finish is described up to it *)
Lemma finish_R s :
  match finish ctl s with
  | (s', COk) => exists d, R (sdisp s) d /\ sdisp s' = sink_push d []
  | (s', _) => E (sdisp s) (sdisp s')
  end.
Proof.
  unfold finish.
  set (r := parse_loop ctl _ _ _ _ _ true None). assert (H : pR (sdisp s) r) by apply parse_of_stream_R. clearbody r.
  destruct r as [p' c' n|e c'|k c'|c']; [| |exact H|exact H].
  - set (d := flush_remaining_input _ _ _). assert (H' : R (sdisp s) d) by (eapply R_trans; [exact H | apply R_emit]).
    destruct (c_end ctl (d_ctl d)) as [[cc pieces] r] eqn:Q. apply R_end in Q. destruct r; cbn.
    + eapply RE; [exact H'|]. eapply E_trans; [exact Q | apply RE1, R_pieces].
    + eexists; split; [|reflexivity]. eapply R_trans; [exact H'|]. eapply R_trans; [exact Q | apply R_pieces].
  - rewrite (surjective_pairing (bail ctl _ _ _ _)), (bail_err ctl). eapply E_trans; [exact H | apply bail_E].
Qed.
End Frame.

(* I c e: a predicate of the controller state c and the memory usage e that the dispatcher reports to it (the arena's
   charge, constant during a parse). *)
Section OkPath.
Context {C : Type} (ctl : controller C).
Variable I : C -> N -> Prop.
Hypothesis I_start : forall c e n h x c' r, I c e -> c_start_tag ctl c e n h x = (c', r) -> match r with SErr _ => True | _ => I c' e end.
Hypothesis I_aux : forall c e a sc c' f, I c e -> c_aux_info ctl c e a sc = (c', FOk f) -> I c' e.
Hypothesis I_endtag : forall c e n h c' f, I c e -> c_end_tag ctl c n h = (c', f) -> I c' e.
Hypothesis I_token : forall c e t c' ps, I c e -> c_token ctl c t = (c', OOk ps) -> I c' e.

Definition Id (e : N) (d : @disp C) : Prop := d_ext_usage d = e /\ I (d_ctl d) e.

Lemma parse_loop_ok {e input base fuel p c last start p1 c1 k} :
  parse_loop ctl input base fuel p c last start = POk p1 c1 k -> Id e (c_disp c) -> Id e (c_disp c1).
Proof.
  intros Ep Hc.
  assert (H : pR (fun d d' => Id e d -> Id e d') (fun _ _ => True) (c_disp c) (parse_loop ctl input base fuel p c last start)).
  { apply parse_loop_R; auto.
    - intros d n h x c' r Q. destruct r; auto; intros [<- Hd]; exact (conj eq_refl (I_start _ _ _ _ _ _ _ Hd Q)).
    - intros d a sc c' r Q. destruct r; auto. intros [<- Hd]. exact (conj eq_refl (I_aux _ _ _ _ _ _ Hd Q)).
    - intros d n h c' f Q [<- Hd]. exact (conj eq_refl (I_endtag _ _ _ _ _ _ Hd Q)).
    - intros d t c' r Q. destruct r; auto. intros [<- Hd]. exact (conj eq_refl (I_token _ _ _ _ _ Hd Q)). }
  rewrite Ep in H. exact (H Hc).
Qed.

(* ar1: the arena during the parse (the chunk appended to a buffered tail), whose charge is reported.  Last, the tail after
   success: still buffered, newly buffered (consulting the limit), or empty. *)
Lemma write_ok s data s' : write ctl s data = (s', COk) ->
  exists ar1 n,
    (if s_has_buf s then arena_append (s_arena s) (c_mem_usage ctl (d_ctl (sdisp s))) (s_max_mem s) data else (s_arena s, true)) = (ar1, true)
    /\ (I (d_ctl (sdisp s)) (ar_charged ar1) -> I (d_ctl (sdisp s')) (ar_charged ar1))
    /\ s_max_mem s' = s_max_mem s
    /\ (s_arena s' = arena_shift ar1 n
        \/ arena_init_with ar1 (c_mem_usage ctl (d_ctl (sdisp s'))) (s_max_mem s) (skipn n data) = (s_arena s', true)
        \/ s_arena s' = ar1).
Proof.
  unfold write. destruct (if s_has_buf s then _ else _) as [ar1 [|]]; cbn [negb]; [|intros []%bail_not_ok].
  destruct (parse_loop ctl _ _ _ _ _ false None) as [p' c' n| | |] eqn:Ep; [|intros []%bail_not_ok|discriminate|discriminate].
  set (d := flush_remaining_input _ _ _).
  assert (Hd : I (d_ctl (sdisp s)) (ar_charged ar1) -> I (d_ctl d) (ar_charged ar1))
    by (intro H; unfold d; rewrite flush_remaining_ctl; exact (proj2 (parse_loop_ok Ep (conj eq_refl H)))).
  intro Ew. exists ar1, n. split; [reflexivity|].
  destruct (n <? _); [destruct (s_has_buf s)|].
  - injection Ew as <-. auto.
  - destruct (arena_init_with _ _ _ _) as [ar2 [|]] eqn:Ei; [|destruct (bail_not_ok _ _ _ _ _ _ Ew)]. injection Ew as <-. auto 6.
  - injection Ew as <-. auto.
Qed.
End OkPath.

Section OkWrite.
Context {C : Type} (ctl : controller C).

Variable J : C -> Prop.
Hypothesis J_start : forall c ext n h x c' r, J c -> c_start_tag ctl c ext n h x = (c', r) -> match r with SErr _ => True | _ => J c' end.
Hypothesis J_aux : forall c ext a sc c' f, J c -> c_aux_info ctl c ext a sc = (c', FOk f) -> J c'.
Hypothesis J_endtag : forall c n h c' f, J c -> c_end_tag ctl c n h = (c', f) -> J c'.
Hypothesis J_token : forall c t c' ps, J c -> c_token ctl c t = (c', OOk ps) -> J c'.

Definition Js (s : @stream C) : Prop := J (d_ctl (c_disp (s_ctx s))).
Theorem write_J s data s' : Js s -> write ctl s data = (s', COk) -> Js s'.
Proof.
  intros Hj Ew.
  destruct (write_ok ctl (fun c _ => J c) J_start J_aux (fun c _ => J_endtag c) (fun c _ => J_token c) s data s' Ew) as (ar1 & _ & _ & H & _).
  exact (H Hj).
Qed.

Theorem J_after_successful_writes chunks : forall r0,
  Js (rw_stream r0) -> rw_poisoned r0 = false -> rw_ended r0 = false ->
  forall r res, api_run ctl r0 (map Write chunks) = (r, res) -> Forall (fun x => x = ROk) res -> Js (rw_stream r).
Proof. exact (successful_writes_preserve ctl Js write_J chunks). Qed.
End OkWrite.
