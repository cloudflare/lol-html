(* C04: the left-to-right reading of a complex selector along the chain of ancestors (what the AST / the
   VM follow, outermost element first) is the right-to-left matching of CssSem.complex_matches (subject first, then the
   ancestors, innermost first). *)
From LolModel Require Import Selectors.
From LolSpec Require Import CssSem.
From LolProofs Require Import AstSem.
From Coq Require Import Lia.
Import ListNotations.
Open Scope nat_scope.

Notation cm := compound_matches.
Definition SC c path s : Prop := sel_child c path s = true.
Definition SS c path s : Prop := sel_sfx c path s = true.

Lemma SS_iff c path s : SS c path s <-> exists s1 s2, s = s1 ++ s2 /\ SC c path s2.
Proof.
  unfold SS, SC. induction s as [|e r IH]; cbn [sel_sfx].
  - split; [discriminate|]. intros [s1 [s2 [E H]]]. symmetry in E. apply app_eq_nil in E. destruct E as [_ ->]. discriminate H.
  - rewrite orb_true_iff, IH. split.
    + intros [H|[s1 [s2 [E H]]]]; [exists [], (e :: r); auto | exists (e :: s1), s2; split; [rewrite E; reflexivity | exact H]].
    + intros [s1 [s2 [E H]]]. destruct s1 as [|a s1]; cbn in E.
      * left. rewrite E. exact H.
      * right. injection E as -> ->. exists s1, s2. auto.
Qed.
Lemma SC_nil {c path} : ~ SC c path [].
Proof. unfold SC. cbn. discriminate. Qed.
Lemma SC_cons c path e rest : SC c path (e :: rest) <->
  cm e c = true /\ match path with [] => rest = [] | (Child, c') :: p' => SC c' p' rest | (Descendant, c') :: p' => SS c' p' rest end.
Proof.
  unfold SC, SS. cbn [sel_child]. rewrite andb_true_iff. destruct path as [|[[|] c'] p']; [|reflexivity|reflexivity].
  destruct rest; split; intros [H1 H2]; split; auto; discriminate.
Qed.

Lemma SC_single c t : SC c [] t <-> exists y, t = [y] /\ cm y c = true.
Proof.
  destruct t as [|y t]; [split; [intros H; exfalso; exact (SC_nil H) | intros [y [E _]]; discriminate]|].
  rewrite SC_cons. split; [intros [H ->]; exists y; auto | intros [z [E H]]; injection E as -> ->; auto].
Qed.
(* one step of the selector, read from the left: the first element matches c, the elements r are skipped (none under a
   child combinator), the rest of the selector matches what remains *)
Lemma SC_step c k c' p' s : SC c ((k, c') :: p') s <->
  exists e r s', s = e :: r ++ s' /\ cm e c = true /\ (k = Child -> r = []) /\ SC c' p' s'.
Proof.
  destruct s as [|e s]; [split; [intros H; exfalso; exact (SC_nil H) | intros [e [r [s' [E _]]]]; discriminate]|].
  rewrite SC_cons. destruct k.
  - split.
    + intros [H1 H2]. exists e, [], s. auto.
    + intros [e' [r [s' [E [H1 [Hr H2]]]]]]. rewrite (Hr eq_refl) in E. injection E as -> ->. auto.
  - rewrite SS_iff. split.
    + intros [H1 [s1 [s2 [-> H2]]]]. exists e, s1, s2. repeat split; [exact H1 | discriminate | exact H2].
    + intros [e' [r [s' [E [H1 [_ H2]]]]]]. injection E as -> ->. split; [exact H1|]. exists r, s'. auto.
Qed.

(* CssSem.match_left without its fuel *)
Fixpoint ml (left : list (compound * comb)) (anc : list elem) : bool :=
  match left with
  | [] => true
  | (c, cb) :: more =>
      match cb with
      | Child => match anc with p :: up => cm p c && ml more up | [] => false end
      | Descendant => (fix scan (a : list elem) : bool := match a with [] => false | p :: up => (cm p c && ml more up) || scan up end) anc
      end
  end.
Lemma match_left_ml : forall left anc fuel, length left <= fuel -> match_left left anc fuel = ml left anc.
Proof.
  induction left as [|[c cb] more IH]; intros anc fuel Hf; [destruct fuel; reflexivity|].
  destruct fuel as [|f]; [destruct (Nat.nle_succ_0 _ Hf)|]. apply le_S_n in Hf. cbn [match_left ml]. destruct cb.
  - destruct anc as [|p up]; [reflexivity|]. rewrite (IH _ _ Hf). reflexivity.
  - induction anc as [|p up IHa]; [reflexivity|]. rewrite (IH _ _ Hf), IHa. reflexivity.
Qed.

(* the same step read from the right, on the ancestors innermost first: the elements r are skipped *)
Lemma ml_step c k more anc : ml ((c, k) :: more) anc = true <->
  exists r e up, anc = r ++ e :: up /\ cm e c = true /\ (k = Child -> r = []) /\ ml more up = true.
Proof.
  destruct k.
  - destruct anc as [|p up]; cbn [ml]; [split; [discriminate | intros [r [e [up [E _]]]]; destruct r; discriminate]|].
    rewrite andb_true_iff. split.
    + intros [H1 H2]. exists [], p, up. auto.
    + intros [r [e [up' [E [H1 [Hr H2]]]]]]. rewrite (Hr eq_refl) in E. cbn [app] in E. injection E as -> ->. auto.
  - assert (Hs : forall p up, ml ((c, Descendant) :: more) (p :: up) = (cm p c && ml more up) || ml ((c, Descendant) :: more) up) by reflexivity.
    split.
    + induction anc as [|p up IH]; [discriminate|]. rewrite Hs, orb_true_iff, andb_true_iff. intros [[H1 H2]|H].
      * exists [], p, up. auto.
      * destruct (IH H) as [r [e [up' [-> [H1 [_ H2]]]]]]. exists (p :: r), e, up'. repeat split; [exact H1 | discriminate | exact H2].
    + intros [r [e [up [-> [H1 [_ H2]]]]]].
      induction r as [|y r IH]; cbn [app]; rewrite Hs; [rewrite H1, H2; reflexivity | rewrite IH; apply orb_true_r].
Qed.

(* the two readings agree, for a selector of which the part in acc has been read: acc was matched against d, the outer end
   of the ancestors anc (innermost first) *)
Lemma lr_is_rl_acc : forall path c acc x anc,
  (let (subj, left) := to_right_left c path acc in cm x subj = true /\ ml left anc = true) <->
  exists d s2, rev anc ++ [x] = rev d ++ s2 /\ SC c path s2 /\ ml acc d = true.
Proof.
  induction path as [|[k c'] p' IH]; intros c acc x anc; cbn [to_right_left].
  - split.
    + intros [H1 H2]. exists anc, [x]. repeat split; [|exact H2]. apply SC_single. exists x. auto.
    + intros [d [s2 [E [H H2]]]]. apply SC_single in H. destruct H as [y [-> H1]].
      apply app_inj_tail in E. destruct E as [E ->]. apply (f_equal (@rev _)) in E. rewrite !rev_involutive in E. subst d. auto.
  - rewrite IH. split.
    + intros [d [s2 [E [H H2]]]]. apply ml_step in H2. destruct H2 as [r [e [up [-> [H1 [Hr H2]]]]]].
      exists up, (e :: rev r ++ s2). rewrite E, rev_app_distr. cbn [rev]. rewrite <- !app_assoc. repeat split; [|exact H2].
      apply SC_step. exists e, (rev r), s2. repeat split; [exact H1 | intros Hk; rewrite (Hr Hk); reflexivity | exact H].
    + intros [d [s [E [H H2]]]]. apply SC_step in H. destruct H as [e [r [s2 [-> [H1 [Hr H]]]]]].
      exists (rev r ++ e :: d), s2. rewrite E, rev_app_distr, rev_involutive. cbn [rev]. rewrite <- !app_assoc. repeat split; [exact H|].
      apply ml_step. exists (rev r), e, d. repeat split; [exact H1 | intros Hk; rewrite (Hr Hk); reflexivity | exact H2].
Qed.
Lemma lr_is_rl c path x anc :
  SS c path (rev anc ++ [x]) <-> (let (subj, left) := to_right_left c path [] in cm x subj = true /\ ml left anc = true).
Proof.
  rewrite lr_is_rl_acc, SS_iff. split; intros [s1 [s2 [E H]]].
  - exists (rev s1), s2. rewrite rev_involutive. repeat split; [exact E | exact H].
  - exists (rev s1), s2. split; [exact E | apply H].
Qed.

Lemma complex_lr_is_css cx x anc : sel_sfx (cx_first cx) (cx_rest cx) (rev anc ++ [x]) = complex_matches cx x anc.
Proof.
  apply eq_true_iff_eq. fold (SS (cx_first cx) (cx_rest cx) (rev anc ++ [x])). rewrite lr_is_rl. unfold complex_matches.
  destruct (to_right_left (cx_first cx) (cx_rest cx) []) as [subj left].
  rewrite match_left_ml by (cbn; lia). rewrite andb_true_iff. reflexivity.
Qed.
Theorem selector_lr_is_css sel x anc : sel_matches_lr sel (rev anc ++ [x]) = selector_matches sel x anc.
Proof.
  unfold sel_matches_lr, selector_matches. apply Css.existsb_ext_in. intros cx _. apply complex_lr_is_css.
Qed.

Theorem add_selector_is_css sel id root x anc i : sel_ok sel (rev anc ++ [x]) ->
  (In i (den_any (add_selector root sel id) (rev anc ++ [x])) <->
   In i (den_any root (rev anc ++ [x])) \/ (i = id /\ selector_matches sel x anc = true)).
Proof. intros H. rewrite <- selector_lr_is_css. exact (add_selector_denotes sel id _ H root i). Qed.
