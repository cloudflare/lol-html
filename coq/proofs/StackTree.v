(* C04 / C05: the VM's open-element stack is the tree that explicit tags induce (spec/CssSem.v on_start / on_end):
   same open elements in the same order, same child counts, hence the :nth-child index the VM evaluates is the element's
   position among its siblings -- for every sequence of start / end tag operations, mis-nested or not.
   First what stack_add_child, stack_push and stack_pop_up_to do to the stack and to its shape; then the controller level:
   what vm_on_start (hint + attribute request) and rw_end_tag do to the stack, and the run over a sequence of tags. *)
From LolModel Require Import Rewriter.
From LolSpec Require Import CssSem.
From LolProofs Require Import Css Bailout Memory.
From Coq Require Import Lia.
Import ListNotations.
Open Scope nat_scope.

Definition shape (s : vstack) : Z * list (lname * Z) := (vs_root_children s, map (fun it => (si_name it, si_children it)) (vs_items s)).
Definition tshape (t : tree_state) : Z * list (lname * Z) :=
  (Z.of_nat (length (t_root_children t)), rev (map (fun o => (lname_of_str (e_name (o_el o)), Z.of_nat (length (o_children o)))) (t_open t))).
Definition small (n : nat) : Prop := (Z.of_nat n + 1 < 2147483648)%Z.
Lemma inc32_small n : small n -> inc32 (Z.of_nat n) = Z.of_nat (S n).
Proof. unfold small, inc32. intros H. rewrite wrap32_id by (unfold in_i32; lia). lia. Qed.

Lemma map_eq_rev_length {A B C} {f : A -> C} {g : B -> C} {l r} : map f l = rev (map g r) -> length l = length r.
Proof. intros E. apply (f_equal (@length _)) in E. rewrite map_length, rev_length, map_length in E. exact E. Qed.
Lemma map_eq_rev_cons {A B C} {f : A -> C} {g : B -> C} {l o r} : map f l = rev (map g (o :: r)) ->
  exists l' x, l = l' ++ [x] /\ map f l' = rev (map g r) /\ f x = g o.
Proof.
  cbn [map rev]. intros E. apply map_eq_app in E. destruct E as [l' [l2 [Es [El E2]]]].
  destruct l2 as [|x [|y l2]]; try discriminate. injection E2 as Ex. exists l', x. auto.
Qed.
Lemma shape_length s t : shape s = tshape t -> length (vs_items s) = length (t_open t).
Proof. intros E. injection E as _ Ei. exact (map_eq_rev_length Ei). Qed.

Lemma map_last_snoc {A} (h : A -> A) l x : Selectors.map_last h (l ++ [x]) = l ++ [h x].
Proof. unfold Selectors.map_last. rewrite rev_app_distr. cbn [rev app]. rewrite rev_involutive. reflexivity. Qed.
Lemma map_last_length {A} (h : A -> A) l : length (Selectors.map_last h l) = length l.
Proof. destruct l as [|x l _] using rev_ind; [reflexivity|]. rewrite map_last_snoc, !app_length. reflexivity. Qed.

Lemma stack_add_child_eq s ln : stack_add_child s ln =
  mkVS (match vs_items s with [] => inc32 (vs_root_children s) | _ => vs_root_children s end)
       (option_map (fun m => typed_add m ln (length (vs_items s))) (vs_typed s))
       (Selectors.map_last (fun it => mkSI (si_name it) (si_data it) (si_jumps it) (si_hjumps it) (inc32 (si_children it))) (vs_items s))
       (vs_cap s) (vs_active_hj s).
Proof.
  destruct s as [rc ty items cap hj]. unfold stack_add_child. cbn [vs_items vs_typed vs_root_children vs_cap vs_active_hj].
  destruct items as [|i0 rest]; [destruct ty; reflexivity|]. cbn [vs_typed vs_items].
  destruct ty; cbn [option_map]; [rewrite map_last_length|]; reflexivity.
Qed.
Lemma stack_push_true {s it isz mi o mx s' ch} : stack_push s it isz mi o mx = (s', ch, true) ->
  vs_root_children s' = vs_root_children s /\ vs_typed s' = vs_typed s /\ vs_items s' = vs_items s ++ [it] /\
  vs_active_hj s' = fold_left (fun acc r => if existsb (fun a => range_eqb (fst a) r) acc then acc else acc ++ [(r, length (vs_items s))])
                              (si_hjumps it) (vs_active_hj s).
Proof.
  unfold stack_push. destruct (if length (vs_items s) <? vs_cap s then _ else _) as [[cap' charged] ok]. destruct ok; intros E; [|discriminate].
  injection E as <- _. repeat split.
Qed.

Lemma rposition_app items ln : forall x i acc,
  rposition (items ++ [x]) ln i acc = if lname_eqb (si_name x) ln then Some (i + length items) else rposition items ln i acc.
Proof.
  induction items as [|y r IH]; intros x i acc; cbn [app rposition length].
  - rewrite Nat.add_0_r. reflexivity.
  - rewrite IH. destruct (lname_eqb (si_name x) ln); [f_equal; lia | reflexivity].
Qed.
Lemma pop_matches_close s t name : shape s = tshape t ->
  match close_to name (t_open t) with
  | Some rest => rposition (vs_items s) (lname_of_str name) 0 None = Some (length rest) /\ (exists pre, t_open t = pre ++ rest)
  | None => rposition (vs_items s) (lname_of_str name) 0 None = None
  end.
Proof.
  intros E. injection E as _ E. revert E. generalize (vs_items s).
  induction (t_open t) as [|o r IH]; intros items E; cbn [close_to].
  - destruct items; [reflexivity | discriminate].
  - destruct (map_eq_rev_cons E) as [l [x [-> [El Ex]]]]. injection Ex as En _.
    rewrite rposition_app, En, local_name_eq_is_case_insensitive_name_eq. fold (name_eq (e_name (o_el o)) name).
    destruct (name_eq (e_name (o_el o)) name).
    + split; [|exists [o]; reflexivity]. rewrite (map_eq_rev_length El). reflexivity.
    + specialize (IH l El). destruct (close_to name r) as [rest|]; [|exact IH].
      destruct IH as [I1 [pre I2]]. split; [exact I1 | exists (o :: pre); rewrite I2; reflexivity].
Qed.
Lemma pop_spec s t name : shape s = tshape t ->
  let k := length (t_open (on_end t name)) in
  (exists pre, t_open t = pre ++ t_open (on_end t name)) /\
  stack_pop_up_to s (lname_of_str name) =
  (match close_to name (t_open t) with
   | Some _ => mkVS (vs_root_children s) (option_map (fun m => typed_pop_to m k) (vs_typed s)) (firstn k (vs_items s)) (vs_cap s)
                    (filter (fun a => snd a <? k) (vs_active_hj s))
   | None => s end,
   map si_data (skipn k (vs_items s))).
Proof.
  intros Hsh. pose proof (pop_matches_close s t name Hsh) as H. unfold stack_pop_up_to, on_end.
  destruct (close_to name (t_open t)) as [rest|]; cbn [t_open].
  - destruct H as [-> Hpre]. split; [exact Hpre | reflexivity].
  - rewrite H, <- (shape_length s t Hsh), skipn_all. split; [exists []; reflexivity | reflexivity].
Qed.

(* on_start's intermediate tree: the child is counted, the element not yet open *)
Definition add_child_tree (t : tree_state) (name : bytes) : tree_state :=
  match t.(t_open) with
  | o :: r => mkTree (mkOpen o.(o_el) (o.(o_children) ++ [name]) :: r) t.(t_root_children)
  | [] => mkTree [] (t.(t_root_children) ++ [name]) end.
Definition siblings (t : tree_state) : list bytes := match t.(t_open) with o :: _ => o.(o_children) | [] => t.(t_root_children) end.

Lemma siblings_add_child t name : siblings (add_child_tree t name) = siblings t ++ [name].
Proof. unfold siblings, add_child_tree. destruct (t_open t); reflexivity. Qed.

Lemma cumulative_of_shape {s t} ln : shape s = tshape t -> ss_cumulative (build_state s ln) = Z.of_nat (length (siblings t)).
Proof.
  intros E. injection E as Er Ei. unfold build_state, siblings. cbn [ss_cumulative].
  destruct (t_open t) as [|o r].
  - destruct (vs_items s); [exact Er | discriminate].
  - destruct (map_eq_rev_cons Ei) as [l [x [-> [_ Ex]]]]. injection Ex as _ Ec. rewrite last_last.
    destruct (l ++ [x]) eqn:E0; [destruct l; discriminate | exact Ec].
Qed.
Lemma shape_add_child s t ln name : shape s = tshape t -> small (length (siblings t)) ->
  shape (stack_add_child s ln) = tshape (add_child_tree t name).
Proof.
  intros E Hs. injection E as Er Ei. unfold shape, tshape.
  unfold add_child_tree, siblings in *. rewrite stack_add_child_eq.
  cbn [vs_items vs_root_children]. destruct (t_open t) as [|o r].
  - destruct (vs_items s); [|discriminate]. rewrite Er, inc32_small by exact Hs.
    cbn [t_open t_root_children map rev]. rewrite app_length, Nat.add_1_r. reflexivity.
  - destruct (map_eq_rev_cons Ei) as [l [x [Es [El Ex]]]]. injection Ex as En Ec.
    rewrite Es, map_last_snoc, Er. destruct (l ++ [x]) eqn:E0; [destruct l; discriminate|].
    cbn [t_open t_root_children map rev o_el o_children]. rewrite map_app, El.
    cbn [map si_name si_children]. rewrite En, Ec, inc32_small by exact Hs. rewrite app_length, Nat.add_1_r. reflexivity.
Qed.

Lemma shape_push s t it name el isz mi other mx s' ch :
  shape s = tshape t -> si_name it = lname_of_str name -> si_children it = 0%Z -> e_name el = name ->
  stack_push s it isz mi other mx = (s', ch, true) ->
  shape s' = tshape (mkTree (mkOpen el [] :: t_open t) (t_root_children t)).
Proof.
  intros E Hn Hc He Hp. injection E as Er Ei. unfold shape, tshape.
  destruct (stack_push_true Hp) as [H2 [_ [H1 _]]].
  rewrite H1, H2, Er, map_app, Ei. cbn [t_open t_root_children map rev o_el o_children length]. rewrite Hn, Hc, He. reflexivity.
Qed.

Lemma firstn_rev_map_app {A B} (f : A -> B) pre rest : firstn (length rest) (rev (map f (pre ++ rest))) = rev (map f rest).
Proof.
  rewrite map_app, rev_app_distr, firstn_app, rev_length, map_length, Nat.sub_diag, firstn_O, app_nil_r.
  apply firstn_all2. rewrite rev_length, map_length. apply le_n.
Qed.
Lemma shape_pop s t name : shape s = tshape t -> shape (fst (stack_pop_up_to s (lname_of_str name))) = tshape (on_end t name).
Proof.
  intros Hsh. destruct (pop_spec s t name Hsh) as [[pre Epre] ->]. cbn [fst]. unfold on_end in *.
  destruct (close_to name (t_open t)) as [rest|]; [|exact Hsh]. cbn [t_open] in *.
  unfold shape, tshape in *. injection Hsh as Er Ei. cbn [vs_root_children vs_items t_open t_root_children].
  rewrite Er. f_equal. rewrite Epre in Ei. apply (f_equal (firstn (length rest))) in Ei.
  rewrite <- firstn_map, Ei. apply firstn_rev_map_app.
Qed.

(* is_void_element consults two tables of hashes: a fast path of frequent non-void names l0, then the void names l1 *)
Lemma guarded_one_of x l0 l1 : forallb (fun k => negb (one_of k l1)) l0 = true ->
  (if one_of x l0 then false else one_of x l1) = one_of x l1.
Proof.
  intros H. unfold one_of at 1. destruct (existsb (N.eqb x) l0) eqn:E; [|reflexivity].
  apply existsb_exists in E. destruct E as [k [Hk Ek]]. apply N.eqb_eq in Ek. subst k.
  rewrite forallb_forall in H. symmetry. apply negb_true_iff. exact (H x Hk).
Qed.
Lemma is_void_by_tables l0 l1 n : forallb (fun k => negb (one_of k l1)) l0 = true -> map lname_of_str void_names = map LHash l1 ->
  match lname_of_str n with LHash h => if one_of h l0 then false else one_of h l1 | LBytes _ => false end = is_void_name n.
Proof.
  intros H0 E. transitivity (match lname_of_str n with LHash h => one_of h l1 | LBytes _ => false end).
  { destruct (lname_of_str n); [apply guarded_one_of, H0 | reflexivity]. }
  clear H0. unfold is_void_name, one_of. revert E. generalize void_names. induction l1 as [|h l1 IH]; intros [|v vs] E; try discriminate.
  - destruct (lname_of_str n); reflexivity.
  - cbn [map] in E. injection E as Ev E. cbn [existsb]. rewrite <- (IH vs E). unfold name_eq.
    rewrite <- local_name_eq_is_case_insensitive_name_eq, Ev. destruct (lname_of_str n); reflexivity.
Qed.
Lemma is_void_is_void_name n : is_void (lname_of_str n) = is_void_name n.
Proof. (* the two tables are what they should be: the one place where the names are hashed *)
  apply is_void_by_tables; vm_compute; reflexivity.
Qed.

Definition stays_open (name : bytes) (n : ns) (sc : bool) : bool := if ns_eqb n Html then negb (is_void_name name) else negb sc.
Definition after_start (t : tree_state) (name : bytes) (n : ns) (sc : bool) : tree_state :=
  snd (on_start t name n [] sc).
Lemma on_start_eq t name n attrs sc : snd (on_start t name n attrs sc) =
  let t1 := add_child_tree t name in
  if stays_open name n sc then mkTree (mkOpen (fst (on_start t name n attrs sc)) [] :: t_open t1) (t_root_children t1) else t1.
Proof.
  unfold on_start, stays_open, add_child_tree. cbn [snd fst].
  destruct (if ns_eqb n Html then negb (is_void_name name) else negb sc); destruct (t_open t); reflexivity.
Qed.
Lemma on_start_name t name n attrs sc : e_name (fst (on_start t name n attrs sc)) = name.
Proof. reflexivity. Qed.

(* one start tag at the controller: the tag hint, then the attribute request if the hint asks for one *)
Definition vm_on_start (c : rwc) (ext : N) (name : bytes) (n : ns) (attrs : list attr_view) (sc : bool) : option rwc :=
  let (c1, r) := rw_start_tag c ext name (hash_of name) n in
  match r with
  | SFlags _ => Some c1
  | SInfoRequest => match rw_aux_info c1 ext attrs sc with (c2, FOk _) => Some c2 | _ => None end
  | SErr _ => None
  end.

Definition finish_some (c : rwc) (ext : N) (r : option ectx) : option rwc :=
  match r with
  | Some ec' => match finish_exec c ext ec' with (c', FOk _) => Some c' | _ => None end
  | None => None
  end.
Lemma rw_aux_info_pending c ext avs sc prog ec how : r_prog c = Some prog ->
  match rw_aux_info (rset_pending c (Some (ec, how))) ext avs sc with (c2, FOk _) => Some c2 | _ => None end =
  finish_some (rset_pending c None) ext
    match how with
    | None => exec_all_with_attrs prog (r_stack c) (mkEC (ec_item ec) (negb sc) (ec_ns ec)) avs
    | Some (a, r) => recover prog (r_stack c) ec a r avs
    end.
Proof.
  intros Eprog. unfold rw_aux_info.
  (* the error codes are unary numerals: abstracted, no later step walks through their 900 constructors *)
  generalize 900. intros k. cbn [rset_pending r_prog r_pending r_stack]. rewrite Eprog.
  destruct (match how with None => _ | Some _ => _ end); reflexivity.
Qed.
(* the controller's three paths (no attributes needed; bail-out and recovery; attributes requested up front for foreign
   elements, whose self-closing flag decides whether they stay open) differ only in the parked request p *)
Lemma vm_on_start_eq c ext name n avs sc prog : r_prog c = Some prog ->
  let s1 := stack_add_child (r_stack c) (lname_of_str name) in
  exists p, vm_on_start c ext name n avs sc =
    finish_some (rset_pending (rset_vm c s1 (r_vm_charged c)) p) ext
      (exec_all_with_attrs prog s1 (mkEC (mkSI (lname_of_str name) (mkED [] None false) [] [] 0%Z) (stays_open name n sc) n) avs).
Proof.
  intros Eprog s1. unfold vm_on_start, rw_start_tag, get_stack_directive, stays_open.
  generalize 900. intros k. (* as in rw_aux_info_pending *)
  rewrite Eprog. fold (lname_of_str name). rewrite is_void_is_void_name. fold s1. set (c1 := rset_vm c s1 (r_vm_charged c)).
  case (ns_eqb n Html); [|exists None; exact (rw_aux_info_pending c1 ext avs sc prog _ None Eprog)].
  generalize (bailout_and_recovery_equal_one_phase_execution prog s1 avs (mkEC (mkSI (lname_of_str name) (mkED [] None false) [] [] 0%Z) (negb (is_void_name name)) n)).
  (* void or not, the first phase ends in one of three ways; only when it needed no attributes does the request stay as it was *)
  case (is_void_name name); (case (exec_without_attrs prog _ _) as [ec'|ec' a r|]; intros Hb;
    [exists (r_pending c); rewrite Hb; change (rset_pending c1 (r_pending c)) with c1;
       unfold finish_some; case (finish_exec c1 ext ec') as [c2 [f|e]]; reflexivity
    |exists None; rewrite <- Hb; exact (rw_aux_info_pending c1 ext avs sc prog _ _ Eprog)
    |exists None; rewrite Hb; reflexivity]).
Qed.
Lemma vm_on_start_exec {c ext name n avs sc c' prog} :
  r_prog c = Some prog -> vm_on_start c ext name n avs sc = Some c' ->
  let s1 := stack_add_child (r_stack c) (lname_of_str name) in
  exists c1 ec' f, r_stack c1 = s1 /\ r_prog c1 = Some prog /\ r_locators c1 = r_locators c /\
    exec_all_with_attrs prog s1 (mkEC (mkSI (lname_of_str name) (mkED [] None false) [] [] 0%Z) (stays_open name n sc) n) avs = Some ec' /\
    finish_exec c1 ext ec' = (c', FOk f).
Proof.
  intros Eprog E s1. destruct (vm_on_start_eq c ext name n avs sc prog Eprog) as [p Eq]. rewrite Eq in E. unfold finish_some in E. fold s1 in E.
  destruct (exec_all_with_attrs prog s1 _ avs) as [ec'|]; [|discriminate].
  destruct (finish_exec _ ext ec') as [c2 [f|e]] eqn:Ef; [|discriminate]. injection E as <-.
  exists (rset_pending (rset_vm c s1 (r_vm_charged c)) p), ec', f. auto.
Qed.

Lemma finish_exec_stack {c ext ec c' f} : finish_exec c ext ec = (c', FOk f) ->
  r_prog c' = r_prog c /\
  if ec_with_content ec then
    exists isz mi other mx ch, stack_push (r_stack c) (ec_item ec) isz mi other mx = (r_stack c', ch, true)
  else r_stack c' = r_stack c.
Proof.
  unfold finish_exec. set (c1 := start_matching c _ _).
  assert (S1 : r_stack c1 = r_stack c) by (apply (start_matching_frame r_stack); reflexivity).
  assert (S2 : r_prog c1 = r_prog c) by (apply (start_matching_frame r_prog); reflexivity).
  destruct (ec_with_content ec).
  - destruct (stack_push _ _ _ _ _ _) as [[s' charged] ok] eqn:Ep. destruct ok; intro E; [|discriminate E]. injection E as <- _.
    cbn [rset_vm r_stack r_prog]. split; [exact S2|]. rewrite S1 in Ep. eexists _, _, _, _, _. exact Ep.
  - intro E. injection E as <- _. split; [exact S2 | exact S1].
Qed.

Lemma vm_on_start_stack {c ext name n avs sc c'} :
  r_prog c <> None -> vm_on_start c ext name n avs sc = Some c' ->
  r_prog c' = r_prog c /\
  let s1 := stack_add_child (r_stack c) (lname_of_str name) in
  if stays_open name n sc
  then exists it isz mi other mx ch, si_name it = lname_of_str name /\ si_children it = 0%Z /\ stack_push s1 it isz mi other mx = (r_stack c', ch, true)
  else r_stack c' = s1.
Proof.
  intros Hp Hrun. destruct (r_prog c) as [prog|] eqn:Eprog; [|contradiction].
  destruct (vm_on_start_exec Eprog Hrun) as [c1 [ec' [f [Hs1 [Hp1 [_ [Hex Hfin]]]]]]].
  apply exec_all_with_attrs_sig in Hex. injection Hex as Hn Hc Hw _.
  destruct (finish_exec_stack Hfin) as [Hp' Hst]. rewrite Hw, Hs1 in Hst.
  split; [rewrite Hp'; exact Hp1|]. cbn zeta. destruct (stays_open name n sc); [|exact Hst].
  destruct Hst as [isz [mi [other [mx [ch Hpush]]]]]. exists (ec_item ec'), isz, mi, other, mx, ch. auto.
Qed.

Lemma rw_end_tag_stack c name : r_prog c <> None ->
  let c' := fst (rw_end_tag c name (hash_of name)) in
  r_prog c' = r_prog c /\ r_stack c' = fst (stack_pop_up_to (r_stack c) (lname_of_str name)).
Proof.
  intros Hp. unfold rw_end_tag. destruct (r_prog c) eqn:Eprog; [|contradiction]. change (lname_of name (hash_of name)) with (lname_of_str name).
  destruct (stack_pop_up_to _ _) as [s' popped]. cbn [fst].
  rewrite (fold_stop_frame r_prog), (fold_stop_frame r_stack) by reflexivity. split; [exact Eprog | reflexivity].
Qed.
(* C05: an end tag deactivates (stop_matching: scoped handlers off, end-tag handler armed) exactly the open elements it
   closes in the tag-induced tree -- the innermost open element of that name and everything inside it -- and an end tag
   that matches no open element deactivates nothing *)
Lemma pop_takes_exactly_the_closed_elements s t name s' popped :
  shape s = tshape t -> stack_pop_up_to s (lname_of_str name) = (s', popped) ->
  let k := length (t_open (on_end t name)) in
  popped = map si_data (skipn k (vs_items s)) /\ vs_items s' = firstn k (vs_items s) /\ length popped = length (t_open t) - k /\
  (close_to name (t_open t) = None -> popped = [] /\ s' = s).
Proof.
  intros Hsh Hp. destruct (pop_spec s t name Hsh) as [_ Hpop]. rewrite Hp in Hpop. injection Hpop as -> ->.
  rewrite map_length, skipn_length, (shape_length _ _ Hsh). unfold on_end.
  destruct (close_to name (t_open t)) as [rest|]; cbn [t_open vs_items].
  - repeat split; discriminate.
  - rewrite <- (shape_length _ _ Hsh), skipn_all, firstn_all. repeat split.
Qed.
Lemma rw_end_tag_stops_the_closed_elements c name t :
  r_prog c <> None -> shape (r_stack c) = tshape t ->
  fst (rw_end_tag c name (hash_of name)) =
  fold_left stop_matching (map si_data (skipn (length (t_open (on_end t name))) (vs_items (r_stack c))))
            (rset_vm c (fst (stack_pop_up_to (r_stack c) (lname_of_str name))) (r_vm_charged c)).
Proof.
  intros Hp Hsh. unfold rw_end_tag. destruct (r_prog c); [|contradiction]. fold (lname_of_str name).
  rewrite (proj2 (pop_spec _ t name Hsh)). reflexivity.
Qed.

Inductive tagop := OpStart (name : bytes) (n : ns) (attrs : list attr_view) (sc : bool) | OpEnd (name : bytes).
Fixpoint vm_run (c : rwc) (ext : N) (ops : list tagop) : option rwc :=
  match ops with
  | [] => Some c
  | OpStart name n attrs sc :: r => match vm_on_start c ext name n attrs sc with Some c1 => vm_run c1 ext r | None => None end
  | OpEnd name :: r => vm_run (fst (rw_end_tag c name (hash_of name))) ext r
  end.
Fixpoint tree_run (t : tree_state) (ops : list tagop) : tree_state :=
  match ops with
  | [] => t
  | OpStart name n _ sc :: r => tree_run (after_start t name n sc) r
  | OpEnd name :: r => tree_run (on_end t name) r
  end.
(* no element ever gets more than 2^31 - 1 children (the i32 counters do not wrap) *)
Fixpoint never_wraps (t : tree_state) (ops : list tagop) : Prop :=
  match ops with
  | [] => True
  | OpStart name n _ sc :: r => small (length (siblings t)) /\ never_wraps (after_start t name n sc) r
  | OpEnd name :: r => never_wraps (on_end t name) r
  end.

(* the stack sees nothing of the attributes the tree records in its elements, so at a start tag they are arbitrary
   (after_start and tree_run take none) *)
Section Keeps.
Variable R : vstack -> tree_state -> Prop.
Hypothesis R_add_child : forall s t name, R s t -> small (length (siblings t)) ->
  R (stack_add_child s (lname_of_str name)) (add_child_tree t name).
Hypothesis R_push : forall s t it name el isz mi other mx s' ch,
  R s t -> si_name it = lname_of_str name -> si_children it = 0%Z -> e_name el = name ->
  stack_push s it isz mi other mx = (s', ch, true) -> R s' (mkTree (mkOpen el [] :: t_open t) (t_root_children t)).
Hypothesis R_pop : forall s t name, R s t -> R (fst (stack_pop_up_to s (lname_of_str name))) (on_end t name).

Lemma start_tag_keeps {c ext name n avs sc c' t} attrs :
  r_prog c <> None -> R (r_stack c) t -> small (length (siblings t)) -> vm_on_start c ext name n avs sc = Some c' ->
  R (r_stack c') (snd (on_start t name n attrs sc)) /\ r_prog c' <> None.
Proof.
  intros Hp HR Hsm Hrun. destruct (vm_on_start_stack Hp Hrun) as [Hp' Hst]. split; [|rewrite Hp'; exact Hp].
  apply (R_add_child _ _ name) in HR; [|exact Hsm]. rewrite on_start_eq. cbn zeta in *.
  destruct (stays_open name n sc); [|rewrite Hst; exact HR].
  destruct Hst as [it [isz [mi [other [mx [ch [Hn [Hc Hpush]]]]]]]].
  eapply R_push; [exact HR | exact Hn | exact Hc | apply on_start_name | exact Hpush].
Qed.
Lemma vm_run_keeps ops : forall c ext t c',
  r_prog c <> None -> R (r_stack c) t -> never_wraps t ops -> vm_run c ext ops = Some c' -> R (r_stack c') (tree_run t ops).
Proof.
  induction ops as [|[name n attrs sc|name] r IH]; intros c ext t c' Hp HR Hw Hrun; cbn [vm_run tree_run never_wraps] in *.
  - injection Hrun as <-. exact HR.
  - destruct Hw as [Hs Hw]. destruct (vm_on_start c ext name n attrs sc) as [c1|] eqn:E; [|discriminate].
    destruct (start_tag_keeps [] Hp HR Hs E) as [A B]. exact (IH c1 ext _ c' B A Hw Hrun).
  - destruct (rw_end_tag_stack c name Hp) as [A B].
    refine (IH _ ext _ c' _ _ Hw Hrun); [rewrite A; exact Hp | rewrite B; apply R_pop; exact HR].
Qed.
End Keeps.

Theorem vm_stack_is_the_tag_induced_tree ops : forall c ext t c',
  r_prog c <> None -> shape (r_stack c) = tshape t -> never_wraps t ops -> vm_run c ext ops = Some c' ->
  shape (r_stack c') = tshape (tree_run t ops).
Proof. exact (vm_run_keeps (fun s t => shape s = tshape t) (fun s t name => shape_add_child s t _ name) shape_push shape_pop ops). Qed.

(* the index :nth-child is evaluated with is the element's 1-based position among its siblings *)
Theorem nth_child_index_is_the_sibling_position s t name n attrs sc :
  shape s = tshape t -> small (length (siblings t)) ->
  ss_cumulative (build_state (stack_add_child s (lname_of_str name)) (lname_of_str name)) = e_index (fst (on_start t name n attrs sc)).
Proof.
  intros Hsh Hs. rewrite (cumulative_of_shape _ (shape_add_child s t _ name Hsh Hs)).
  rewrite siblings_add_child, app_length, Nat.add_1_r. reflexivity.
Qed.
