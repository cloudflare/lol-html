(* C04: attribute bail-out and recovery.  The VM first runs without attributes; when an instruction needs them it bails
   out, and once they are available it finishes that instruction and resumes from the recorded recovery point (entry
   points / the parent's jumps / hereditary jumps, at an offset).  The two phases together compute exactly what the
   one-phase execution with attributes (exec_all_with_attrs) computes. *)
From LolModel Require Import Selectors.
From Coq Require Import Lia.
Import ListNotations.
Open Scope nat_scope.

(* the VM never changes the name, child count, content flag or namespace of the element being matched *)
Definition esig (c : ectx) := (si_name (ec_item c), si_children (ec_item c), ec_with_content c, ec_ns c).
Lemma add_branch_sig c i : esig (add_branch c i) = esig c.
Proof. unfold add_branch, esig. destruct (ec_with_content c); reflexivity. Qed.

Section Bailout.
Variable prog : program.
Variable stk : vstack.
Variable attrs : list attr_view.

Notation at_ := (instr_at prog).
(* the tag-name half of an instruction's test, all the first phase evaluates (VmExec.ptest is the whole test) *)
Definition tag_test (c : ectx) (a : nat) : option bool :=
  all_tag (build_state stk c.(ec_item).(si_name)) c.(ec_item).(si_name) (at_ a).(i_pred).(p_tag).
Definition finish_instr (c : ectx) (a : nat) : ectx :=
  if all_attr attrs (ns_eqb c.(ec_ns) Html) (at_ a).(i_pred).(p_attr) then add_branch c (at_ a) else c.

Lemma exec_set_app l1 : forall l2 c, exec_set prog stk (l1 ++ l2) attrs c = match exec_set prog stk l1 attrs c with Some c' => exec_set prog stk l2 attrs c' | None => None end.
Proof.
  induction l1 as [|a r IH]; intros l2 c; cbn [app exec_set]; [reflexivity|].
  destruct (all_tag _ _ _) as [[|]|]; [|apply IH|reflexivity]. destruct (all_attr _ _ _); apply IH.
Qed.
Lemma exec_set_sig addrs : forall c c', exec_set prog stk addrs attrs c = Some c' -> esig c' = esig c.
Proof.
  induction addrs as [|a r IH]; intros c c'; cbn [exec_set]; [intro E; injection E as <-; reflexivity|].
  destruct (all_tag _ _ _) as [[|]|]; [|apply IH|discriminate].
  destruct (all_attr _ _ _); [|apply IH]. intro E. rewrite (IH _ _ E). apply add_branch_sig.
Qed.
Definition addrs (sets : list range) : list nat := flat_map (fun r => addrs_of r 0) sets.
Lemma exec_sets_flat : forall sets c, exec_sets prog stk sets 0 attrs c = exec_set prog stk (addrs sets) attrs c.
Proof.
  induction sets as [|s r IH]; intros c; cbn [exec_sets addrs flat_map]; [reflexivity|].
  rewrite exec_set_app. destruct (exec_set prog stk (addrs_of s 0) attrs c); [apply IH | reflexivity].
Qed.
Definition all_sets : list range := prog.(pr_entry) :: parent_jumps stk ++ map fst stk.(vs_active_hj).
Lemma exec_all_flat c : exec_all_with_attrs prog stk c attrs = exec_set prog stk (addrs all_sets) attrs c.
Proof.
  unfold exec_all_with_attrs, exec_jumps_with_attrs, exec_hjumps_with_attrs, all_sets, addrs. cbn [skipn flat_map].
  rewrite flat_map_app, exec_set_app. destruct (exec_set prog stk (addrs_of (pr_entry prog) 0) attrs c) as [c1|]; [|reflexivity].
  rewrite exec_set_app, exec_sets_flat. unfold addrs. destruct (exec_set prog stk (flat_map _ (parent_jumps stk)) attrs c1); [apply exec_sets_flat | reflexivity].
Qed.

Lemma exec_all_with_attrs_sig c c' : exec_all_with_attrs prog stk c attrs = Some c' -> esig c' = esig c.
Proof. rewrite exec_all_flat. apply exec_set_sig. Qed.

Lemma try_set_spec addrs : forall start c,
  match try_set prog stk addrs start c with
  | TrOk c' => exec_set prog stk addrs attrs c = Some c'
  | TrBail c' a off => exists pre post, addrs = pre ++ a :: post /\ exec_set prog stk pre attrs c = Some c' /\ tag_test c' a = Some true /\ off = a - start + 1
  | TrPanic => exec_set prog stk addrs attrs c = None
  end.
Proof.
  induction addrs as [|a r IH]; intros start c; cbn [try_set exec_set]; [reflexivity|].
  fold (tag_test c a).
  destruct (tag_test c a) as [[|]|] eqn:Et.
  - destruct (p_attr (i_pred (at_ a))) eqn:Ea.
    + unfold all_attr at 1. cbn [forallb].
      specialize (IH start (add_branch c (at_ a))). destruct (try_set prog stk r start (add_branch c (at_ a))) as [c'|c' a' off|]; auto.
      destruct IH as [pre [post [E1 [E2 [E3 E4]]]]]. exists (a :: pre), post. subst r. cbn [app exec_set]. fold (tag_test c a). rewrite Et, Ea.
      unfold all_attr at 1. cbn [forallb]. auto.
    + exists [], r. cbn. repeat split; auto.
  - specialize (IH start c). destruct (try_set prog stk r start c) as [c'|c' a' off|]; auto.
    destruct IH as [pre [post [E1 [E2 [E3 E4]]]]]. exists (a :: pre), post. subst r. cbn [app exec_set]. fold (tag_test c a). rewrite Et. auto.
  - reflexivity.
Qed.
(* the successful prefix: instructions whose tag-name half holds have no attribute half, or we would have bailed out *)
Lemma try_set_spec_true addrs : forall start c,
  match try_set prog stk addrs start c with
  | TrBail c' a off => exists pre post, addrs = pre ++ a :: post /\ exec_set prog stk pre attrs c = Some c'
  | _ => True
  end.
Proof.
  intros start c. pose proof (try_set_spec addrs start c) as H. destruct (try_set prog stk addrs start c); auto.
  destruct H as [pre [post [E1 [E2 _]]]]. exists pre, post. split; assumption.
Qed.

Lemma seq_split {pre} : forall {s n a post}, seq s n = pre ++ a :: post -> a = s + length pre /\ post = seq (S a) (n - S (length pre)).
Proof.
  induction pre as [|x pre IH]; intros s n a post E; (destruct n; [discriminate|]); cbn [seq app] in E; injection E as Ex E'; cbn [length].
  - rewrite <- Ex, <- E', Nat.add_0_r. cbn [Nat.sub]. rewrite Nat.sub_0_r. split; reflexivity.
  - destruct (IH _ _ _ _ E') as [H1 H2]. split; [lia | exact H2].
Qed.

Lemma set_resume R c c' a off : try_set prog stk (addrs_of R 0) (rs R) c = TrBail c' a off ->
  exec_set prog stk (addrs_of R 0) attrs c = exec_set prog stk (addrs_of R off) attrs (finish_instr c' a).
Proof.
  intros E. pose proof (try_set_spec (addrs_of R 0) (rs R) c) as H. rewrite E in H. destruct H as [pre [post [E1 [E2 [E3 E4]]]]].
  rewrite E1, exec_set_app, E2. cbn [exec_set]. fold (tag_test c' a). rewrite E3.
  unfold addrs_of in E1. destruct (seq_split E1) as [Ha Hp].
  assert (Hpost : addrs_of R off = post).
  { unfold addrs_of. rewrite Hp. subst off. replace (rs R + (a - rs R + 1)) with (S a) by lia. f_equal. lia. }
  rewrite Hpost. unfold finish_instr. destruct (all_attr _ _ _); reflexivity.
Qed.

Lemma try_sets_spec mk sets : forall idx c,
  match try_sets prog stk sets idx c mk with
  | WoDone c' => exec_sets prog stk sets 0 attrs c = Some c'
  | WoBail c' a rec => exists k off, rec = mk (idx + k) off /\ exec_sets prog stk sets 0 attrs c = exec_sets prog stk (skipn k sets) off attrs (finish_instr c' a)
  | WoPanic => exec_sets prog stk sets 0 attrs c = None
  end.
Proof.
  induction sets as [|s r IH]; intros idx c; cbn [try_sets exec_sets]; [reflexivity|].
  pose proof (try_set_spec (addrs_of s 0) (rs s) c) as H1.
  destruct (try_set prog stk (addrs_of s 0) (rs s) c) as [c1|c1 a off|] eqn:Et.
  - rewrite H1. specialize (IH (S idx) c1). destruct (try_sets prog stk r (S idx) c1 mk) as [c2|c2 a rec|]; auto.
    destruct IH as [k [off [Er Ee]]]. exists (S k), off. split; [rewrite Er; f_equal; lia | exact Ee].
  - exists 0, off. split; [f_equal; lia|]. cbn [skipn exec_sets]. rewrite (set_resume s c c1 a off Et). reflexivity.
  - rewrite H1. reflexivity.
Qed.

Theorem bailout_and_recovery_equal_one_phase_execution c :
  match exec_without_attrs prog stk c with
  | WoDone c' => exec_all_with_attrs prog stk c attrs = Some c'
  | WoBail c' a r => recover prog stk c' a r attrs = exec_all_with_attrs prog stk c attrs
  | WoPanic => exec_all_with_attrs prog stk c attrs = None
  end.
Proof.
  unfold exec_without_attrs, exec_all_with_attrs, recover, exec_jumps_with_attrs, exec_hjumps_with_attrs.
  pose proof (try_set_spec (addrs_of (pr_entry prog) 0) (rs (pr_entry prog)) c) as H1.
  destruct (try_set prog stk (addrs_of (pr_entry prog) 0) (rs (pr_entry prog)) c) as [c1|c1 a off|] eqn:Et.
  - rewrite H1. cbn [skipn].
    pose proof (try_sets_spec RecJumps (parent_jumps stk) 0 c1) as H2.
    destruct (try_sets prog stk (parent_jumps stk) 0 c1 RecJumps) as [c2|c2 a rec|].
    + rewrite H2.
      pose proof (try_sets_spec RecHJumps (map fst (vs_active_hj stk)) 0 c2) as H3.
      destruct (try_sets prog stk (map fst (vs_active_hj stk)) 0 c2 RecHJumps) as [c3|c3 a rec|].
      * exact H3.
      * destruct H3 as [k [off [Er Ee]]]. subst rec. cbn [Nat.add]. fold (finish_instr c3 a). rewrite Ee. reflexivity.
      * rewrite H3. reflexivity.
    + destruct H2 as [k [off [Er Ee]]]. subst rec. cbn [Nat.add]. fold (finish_instr c2 a). rewrite Ee. reflexivity.
    + rewrite H2. reflexivity.
  - fold (finish_instr c1 a). rewrite (set_resume _ c c1 a off Et). cbn [skipn]. reflexivity.
  - rewrite H1. reflexivity.
Qed.
End Bailout.
