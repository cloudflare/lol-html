(* C13: the executable UTF-8 decoder used in the correspondence run satisfies the decoder contract, hence for the UTF-8
   instance of the TextDecoder model the theorem holds unconditionally: any split of a text node = whole-buffer decode. *)
From LolModel Require Import Base TextDecoder.
From LolProofs Require Import TextDecoderProof.
From Coq Require Import Lia List.
Import ListNotations.
Open Scope nat_scope.

Lemma u8_run_app s x : forall y, u8_run s (x ++ y) = let (o1, s1) := u8_run s x in let (o2, s2) := u8_run s1 y in (o1 ++ o2, s2).
Proof.
  revert s. induction x as [|b r IH]; intros s y; cbn [app u8_run].
  - destruct (u8_run s y); reflexivity.
  - destruct (u8_step s b) as [[s1 o1] bad]. rewrite IH. destruct (u8_run s1 r) as [o2 s2]. destruct (u8_run s2 y) as [o3 s3].
    rewrite app_assoc. reflexivity.
Qed.

(* decode_to_str consumes a prefix and produces exactly the transducer's output for it *)
Lemma u8_go_spec inp : forall s cap read out f read' out' s',
  u8_go s inp cap read out = (f, read', out', s') ->
  exists k o, read' = read + k /\ out' = out ++ o /\ u8_run s (firstn k inp) = (o, s') /\ k <= length inp
              /\ (f = true -> k = length inp) /\ (f = false -> cap < length out' + 4).
Proof.
  induction inp as [|b r IH]; intros s cap read out f read' out' s' E; cbn [u8_go] in E.
  - injection E as <- <- <- <-. exists 0, []. rewrite app_nil_r. repeat split; auto; discriminate.
  - destruct (Nat.ltb_spec cap (length out + 4)) as [Hc|Hc].
    + injection E as <- <- <- <-. exists 0, []. rewrite app_nil_r. repeat split; auto; [apply Nat.le_0_l | discriminate].
    + destruct (u8_step s b) as [[s1 o1] bad] eqn:Es.
      destruct (IH _ _ _ _ _ _ _ _ E) as (k & o & -> & -> & Hrun & Hk & Hf & Hc').
      exists (S k), (o1 ++ o). cbn [firstn u8_run length]. rewrite Es, Hrun, app_assoc.
      repeat split; auto; try lia.
Qed.

Lemma step_clean {s b s1 o} : u8_step s b = (s1, o, false) -> (s1 = [] /\ o = s ++ [b]) \/ (s1 = s ++ [b] /\ o = []).
Proof.
  unfold u8_step. destruct s as [|l tl].
  - unfold u8_start. destruct (b <? 128)%N; [intros E; injection E as <- <-; auto|].
    destruct (is_lead b); intros E; [injection E as <- <-; auto | discriminate].
  - (* a byte that does not continue the character makes the step malformed, whatever it starts *)
    destruct (u8_need (l :: tl)) as [[[t lo] hi]|]; [destruct ((lo <=? b) && (b <=? hi))%N|];
      try (destruct (u8_start b) as [[? ?] ?]; discriminate).
    destruct (S (length (l :: tl)) =? t); intros E; injection E as <- <-; auto.
Qed.

(* the scan for valid_up_to answers with the last clean point met before, or one it finds k bytes on: up to there no
   step was malformed, so the text put out is the pending bytes and those k *)
Lemma u8_vup_spec inp : forall s pos ok,
  u8_vup s inp pos ok = ok \/
  exists k, k <= length inp /\ u8_vup s inp pos ok = pos + k /\ u8_run s (firstn k inp) = (s ++ firstn k inp, []).
Proof.
  induction inp as [|b rest IH]; intros s pos ok; cbn [u8_vup]; [left; reflexivity|].
  destruct (u8_step s b) as [[s1 o1] bad] eqn:Es. destruct bad; [left; reflexivity|].
  assert (Hc : o1 ++ s1 = s ++ [b]) by (destruct (step_clean Es) as [[-> ->]|[-> ->]]; rewrite ?app_nil_r; reflexivity).
  destruct (IH s1 (S pos) (match s1 with [] => S pos | _ => ok end)) as [E|[k [Hk [E Hr]]]]; rewrite E.
  - destruct s1; [right | left; reflexivity]. exists 1. split; [cbn [length]; lia|]. split; [lia|].
    cbn [firstn u8_run]. rewrite Es, <- Hc. reflexivity.
  - right. exists (S k). split; [cbn [length]; lia|]. split; [lia|].
    cbn [firstn u8_run]. rewrite Es, Hr. cbn beta iota. rewrite app_assoc, Hc, <- app_assoc. reflexivity.
Qed.

Theorem utf8_decoder_laws :
  @decoder_laws u8state u8state [] u8_decode u8_valid_up_to [] u8_run u8_fin (fun s => s).
Proof.
  constructor.
  - reflexivity.
  - intros a x y. apply u8_run_app.
  - reflexivity.
  - intros st inp last f read out st' E. unfold u8_decode in E.
    destruct (u8_go st inp BUF 0 []) as [[[f0 r0] o0] s0] eqn:Eg.
    destruct (u8_go_spec inp st BUF 0 [] f0 r0 o0 s0 Eg) as (k & o & -> & -> & Er & Hk & Hall & Hcap). cbn [Nat.add app] in *.
    (* the buffer has room for a character at the start, so a call that stops early has read something *)
    assert (Hprog : f0 = false -> 0 < k).
    { intros Hf. specialize (Hcap Hf). destruct k; [|lia]. injection Er as <- _. apply Nat.ltb_lt in Hcap. discriminate. }
    destruct (f0 && last) eqn:Ef; injection E as <- <- <- <-; rewrite Er.
    + apply andb_prop in Ef as [-> ->]. repeat split; auto; discriminate.
    + rewrite andb_comm, Ef. repeat split; auto.
  - intros raw. unfold u8_valid_up_to.
    destruct (u8_vup_spec raw [] 0 0) as [->|[k [Hk [-> Hr]]]]; [split; [lia | reflexivity] | split; assumption].
Qed.
