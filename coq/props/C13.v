(* C13 -- character-encoding fidelity (partial).  Only statements, `exact` proofs and Print Assumptions. *)
From LolModel Require Import TextDecoder.
From LolModel Require Import Rewriter StreamSink.
From LolProofs Require Import StreamSinkProof.
From LolProofs Require Import TextDecoderProof Utf8Decoder.
From Coq Require Import List.
Import ListNotations.
Open Scope nat_scope.

(* For EVERY streaming decoder that behaves like a whole-buffer decoder cut into pieces (decoder_laws: the assumed
   behaviour of encoding_rs' Decoder::decode_to_str for each of the 36 encodings, see the trusted base), every text node
   and every split of its bytes into lexemes (write boundaries anywhere, also inside a multi-byte character, any number
   of buffer refills): the strings the text handlers receive concatenate to the whole-buffer decode of the node's bytes
   (malformed sequences as the decoder's U+FFFD, an incomplete tail resolved at the end of the node), the chunk ranges
   tile the node exactly (C14's text clause), and exactly the final chunk is flagged last_in_text_node. *)
Theorem C13_text_chunks_are_the_whole_buffer_decode :
  forall (dstate A : Type) (dnew : dstate) ddecode valid_up_to (a0 : A) run fin abs,
  @decoder_laws dstate A dnew ddecode valid_up_to a0 run fin abs ->
  forall start p pieces,
  let cs := text_node dstate dnew ddecode valid_up_to (p :: pieces) start in
  texts cs = W A a0 run fin (concat (p :: pieces))
  /\ tiles cs start (start + length (concat (p :: pieces)))
  /\ exists body final, cs = body ++ [final] /\ none_last body /\ tc_last final = true.
Proof. exact (@text_node_correct). Qed.

(* the contract is satisfiable by the trivial codec ... *)
Example C13_laws_are_satisfiable :
  @decoder_laws unit unit tt (fun _ inp _ _ => (true, length inp, inp, tt)) (fun raw => length raw) tt (fun _ x => (x, tt)) (fun _ => []) (fun _ => tt).
Proof. exact identity_decoder_laws. Qed.
(* ... and by the executable UTF-8 decoder of the model (a byte-at-a-time transducer with U+FFFD for every malformed or
   truncated sequence, bounded output buffer): so for UTF-8 the statement is unconditional -- every split of a text node,
   at any byte, decodes to the whole-buffer decode u8_whole of its bytes *)
Theorem C13_utf8_decoder_meets_the_contract :
  @decoder_laws u8state u8state [] u8_decode u8_valid_up_to [] u8_run u8_fin (fun s => s).
Proof. exact utf8_decoder_laws. Qed.
Theorem C13_utf8_any_split_equals_whole_decode :
  forall start p pieces,
  let cs := utf8_text_node (p :: pieces) start in
  texts cs = u8_whole (concat (p :: pieces))
  /\ tiles cs start (start + length (concat (p :: pieces)))
  /\ exists body final, cs = body ++ [final] /\ none_last body /\ tc_last final = true.
Proof. exact (text_node_correct [] u8_decode u8_valid_up_to [] u8_run u8_fin (fun s => s) utf8_decoder_laws). Qed.
(* ... and the executable UTF-8 instance used in the correspondence run decodes a character split over three writes,
   a malformed byte and a truncated tail as the whole-buffer decoder does, with tiling ranges *)
Example C13_utf8_instance_example :
  map (fun c => (tc_text c, tc_last c, tc_a c, tc_b c)) (utf8_text_node [[97; 228]; [184]; [173; 255; 195]]%N 10)
  = [([97%N], false, 10, 12); ([228; 184; 173; 239; 191; 189]%N, false, 12, 16); ([239; 191; 189]%N, true, 16, 16)].
Proof. vm_compute. reflexivity. Qed.

(* Content written by handlers as UTF-8 byte fragments (StreamingHandlerSink::write_utf8_chunk, IncompleteUtf8Resync): for EVERY
   way of cutting a valid UTF-8 string into fragments -- cuts inside characters, one-byte and empty fragments -- every write
   succeeds and what reaches the output is the string (escaped when the content type is Text), nothing lost, duplicated or
   reordered; and a write is refused only when its bytes do not continue the stream as valid UTF-8. *)
Theorem C13_utf8_fragments_written_to_a_sink_are_the_string :
  forall ct frags, from_utf8 (List.concat frags) = U8Ok ->
  exists outs, sink_run nil (map (fun f => SkUtf8 f ct) frags) = map (fun o => (true, o)) outs /\ List.concat outs = sk_emit ct (List.concat frags).
Proof. exact utf8_fragments_written_to_a_sink_are_the_string. Qed.
Theorem C13_sink_refuses_only_invalid_utf8 :
  forall st c ps, reach st -> write_chunk 3 st c nil = (None, ps) -> u8_adv st c = None.
Proof. exact write_fails_only_on_invalid. Qed.
Example C13_sink_example :
  sink_run nil (SkUtf8 (bs "a") CtText :: SkUtf8 (226 :: 130 :: nil)%N CtText :: SkUtf8 (172 :: 60 :: nil)%N CtText :: nil)
  = (true, bs "a") :: (true, nil) :: (true, (226 :: 130 :: 172 :: nil)%N ++ bs "&lt;") :: nil.
Proof. vm_compute. reflexivity. Qed.

Print Assumptions C13_text_chunks_are_the_whole_buffer_decode.
Print Assumptions C13_utf8_any_split_equals_whole_decode.
Print Assumptions C13_utf8_fragments_written_to_a_sink_are_the_string.
Print Assumptions C13_sink_refuses_only_invalid_utf8.
