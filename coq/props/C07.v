(* C07 -- rewrite operations (partial: token level).  Only statements, `exact` proofs and Print Assumptions. *)
From LolModel Require Import Rewriter.
From LolProofs Require Import TokenLaws.

Theorem C07_serialization_shape : forall m self,
  serialize_with (Some m) self = encode_chunks m.(mu_before) ++ (if m.(mu_removed) then encode_chunks m.(mu_repl) else self) ++ encode_chunks m.(mu_after).
Proof. exact serialize_with_shape. Qed.
Theorem C07_untouched_token_verbatim : forall self, serialize_with None self = self.
Proof. exact serialize_unmutated. Qed.
Theorem C07_before_appends : forall m c1 c2, mu_before (mget (m_before (m_before m c1) c2)) = mu_before (mget m) ++ [c1; c2].
Proof. exact before_accumulates. Qed.
Theorem C07_after_prepends : forall m c1 c2, mu_after (mget (m_after (m_after m c1) c2)) = c2 :: c1 :: mu_after (mget m).
Proof. exact after_accumulates. Qed.
Theorem C07_replace_overwrites : forall m c1 c2,
  mu_repl (mget (m_replace (m_replace m c1) c2)) = [c2] /\ mu_removed (mget (m_replace (m_replace m c1) c2)) = true
  /\ mu_before (mget (m_replace m c1)) = mu_before (mget m) /\ mu_after (mget (m_replace m c1)) = mu_after (mget m).
Proof. exact replace_overwrites. Qed.
Theorem C07_remove_keeps_insertions : forall m,
  mu_removed (mget (m_remove m)) = true /\ mu_before (mget (m_remove m)) = mu_before (mget m) /\ mu_after (mget (m_remove m)) = mu_after (mget m).
Proof. exact remove_keeps_insertions. Qed.
Theorem C07_untouched_start_tag_verbatim : forall t raw, stt_raw t = Some raw -> stt_mut t = None -> serialize_start_tag t = [raw].
Proof. exact start_tag_verbatim. Qed.
Theorem C07_untouched_attribute_survives_set_attribute : forall t n v t',
  stt_set_attr t n v = inl t' -> forall a, In a (stt_attrs t) -> attr_matches (lower_bytes n) a = false -> In a (stt_attrs t').
Proof. exact set_attr_keeps_others_raw. Qed.
Theorem C07_untouched_attribute_verbatim : forall a raw, at_raw a = Some raw -> serialize_attr a = raw.
Proof. exact untouched_attribute_verbatim. Qed.
(* NOT proved here: the stream-level statement (output = reference edit of the token stream, content removal, deferred
   end-tag edits); exercised by the correspondence run with random operation scripts (families l2edit, l2mixed). *)
Print Assumptions C07_serialization_shape.
Print Assumptions C07_before_appends.
Print Assumptions C07_after_prepends.
Print Assumptions C07_replace_overwrites.
Print Assumptions C07_untouched_attribute_survives_set_attribute.
