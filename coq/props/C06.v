(* C06 -- handler independence (partial).  Only statements, `exact` proofs and Print Assumptions. *)
From LolModel Require Import Machine.
From LolProofs Require Import Corollaries.
From LolProps Require Import C01.

(* Any two observer controllers -- e.g. a handler set H and H plus any observers O, which drive the parser through
   completely different sequences of tag-scanning and full lexing -- emit the same bytes for the same input, under any
   two chunkings. *)
Theorem C06_output_independent_of_observers :
  forall (C1 C2 : Type) (ctl1 : controller C1) (ctl2 : controller C2), observer ctl1 -> observer ctl2 ->
  forall cfg1 cfg2 c1 c2 chunks1 chunks2 r1 res1 r2 res2,
    List.concat chunks1 = List.concat chunks2 ->
    api_run ctl1 (new_rewriter ctl1 cfg1 c1) (map Write chunks1 ++ [End]) = (r1, res1) -> Forall (fun x => x = ROk) res1 ->
    api_run ctl2 (new_rewriter ctl2 cfg2 c2) (map Write chunks2 ++ [End]) = (r2, res2) -> Forall (fun x => x = ROk) res2 ->
    sink_bytes (rw_sink r1) = sink_bytes (rw_sink r2).
Proof.
  intros C1 C2 ctl1 ctl2 (A1 & A2 & A3) (B1 & B2 & B3) cfg1 cfg2 c1 c2 ch1 ch2 r1 res1 r2 res2.
  exact (observers_agree ctl1 ctl2 cfg1 cfg2 c1 c2 ch1 ch2 r1 res1 r2 res2 A1 A2 A3 B1 B2 B3).
Qed.
(* NOT proved here: equality of the events H itself observes (scanner/lexer simulation); exercised by the pairs family
   (H vs H u O) through correspondence and oracle_c06. *)
Print Assumptions C06_output_independent_of_observers.
