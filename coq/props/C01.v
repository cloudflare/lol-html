(* C01 -- pass-through identity.  Only statements, `exact` proofs and Print Assumptions. *)
From LolModel Require Import Policy.
From LolProofs Require Import Tiling TableFacts.

(* An observer controller: every handled token is re-emitted as its own bytes (no mutation), content is
   never removed, nothing is appended at the end of the document.  The capture-flag policy, the answers to
   start/end tag hints, the info requests and the failures are arbitrary -- this covers every set of observing
   handlers (document-level, selector-scoped, any union), i.e. every way of switching between tag scanning and
   full lexing. *)
Definition observer {C} (ctl : controller C) : Prop :=
  (forall c t c' ps, c_token ctl c t = (c', OOk ps) -> List.concat ps = token_bytes t)
  /\ (forall c, c_should_emit ctl c = true)
  /\ (forall c, snd (fst (c_end ctl c)) = []).

(* For every observer, configuration (strict or not, any memory limit), input and split into write() calls:
   if every call succeeds, the bytes given to the sink are exactly the bytes written. *)
Theorem C01_pass_through :
  forall (C : Type) (ctl : controller C), observer ctl ->
  forall (cfg : settings) (c0 : C) (chunks : list bytes) r res,
    api_run ctl (new_rewriter ctl cfg c0) (map Write chunks ++ [End]) = (r, res) ->
    Forall (fun x => x = ROk) res ->
    sink_bytes (rw_sink r) = List.concat chunks.
Proof.
  intros C ctl (H1 & H2 & H3) cfg c0 chunks r res. exact (pass_through ctl H1 H2 table_ok_current cfg c0 chunks r res H3).
Qed.

(* ... and when a write fails (strict-mode ParsingAmbiguity, memory, a failing handler) without graceful bail-out,
   what was emitted is a prefix of what was written. *)
Theorem C01_prefix_on_failure :
  forall (C : Type) (ctl : controller C), observer ctl ->
  forall cfg c0 chunks data r res r' e,
    api_run ctl (new_rewriter ctl cfg c0) (map Write chunks) = (r, res) -> Forall (fun x => x = ROk) res ->
    api_step ctl r (Write data) = (r', RErr e) -> should_bail_out_for (rw_stream r) e = false ->
    exists post, sink_bytes (rw_sink r') ++ post = List.concat chunks ++ data.
Proof.
  intros C ctl (H1 & H2 & H3) cfg c0 chunks data r res r' e E1 Hall Es Hb.
  pose proof (first_failing_write ctl H1 H2 table_ok_current cfg c0 chunks data r res r' e E1 Hall Es) as H.
  cbv zeta in H. rewrite Hb in H. exact H.
Qed.

(* the side conditions on the regenerated tokenizer table *)
Theorem C01_table_side_conditions : forall st, state_ok (table st) = true.
Proof. exact table_ok_current. Qed.

(* non-vacuity: observers exist (a controller that captures everything and re-emits every token), and a concrete
   run of the level-1 policy controller goes through lexer and scanner *)
Definition capture_all : controller unit := {|
  c_initial_flags := fun _ => 31%N;
  c_start_tag := fun _ _ _ _ _ => (tt, SFlags 31%N);
  c_aux_info := fun _ _ _ _ => (tt, FOk 31%N);
  c_end_tag := fun _ _ _ => (tt, 31%N);
  c_token := fun _ t => (tt, OOk (serialize_unmodified t));
  c_end := fun _ => (tt, [], None);
  c_should_emit := fun _ => true;
  c_bail_out := fun _ _ => (tt, []);
  c_mem_usage := fun _ => 0%N |}.
Example C01_observers_exist : observer capture_all.
Proof.
  split; [|split; reflexivity]. intros c t c' ps [= _ <-].
  destruct t; cbn; try (rewrite app_nil_r; reflexivity). destruct text; cbn; [reflexivity | rewrite app_nil_r; reflexivity].
Qed.
Example C01_nonvacuous :
  let cfg := mkSettings false 1000%N 0 false false 0 in
  let p0 := mkPol 0 1 None false [] [] 0 [] in
  let '(r, res) := api_run policy_controller (new_rewriter policy_controller cfg p0)
                     (map Write [bs "<a hr"; bs "ef=x>t<!--"; bs "c--></a"; bs ">"] ++ [End]) in
  res = [ROk; ROk; ROk; ROk; ROk] /\ sink_bytes (rw_sink r) = bs "<a href=x>t<!--c--></a>".
Proof. vm_compute. split; reflexivity. Qed.

Print Assumptions C01_pass_through.
Print Assumptions C01_prefix_on_failure.
Print Assumptions C01_table_side_conditions.
