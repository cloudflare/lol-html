(* C02 -- chunk-boundary invariance (partial).  Only statements, `exact` proofs and Print Assumptions. *)
From LolModel Require Import Machine.
From LolProofs Require Import Corollaries.
From LolProps Require Import C01.

(* For every observer controller and every two splits of the same bytes into write() calls (one-byte writes,
   empty writes, any cuts): if both runs succeed they emit the same bytes. *)
Theorem C02_output_is_chunking_invariant_for_observers :
  forall (C : Type) (ctl : controller C), observer ctl ->
  forall cfg c0 chunks1 chunks2 r1 res1 r2 res2,
    List.concat chunks1 = List.concat chunks2 ->
    api_run ctl (new_rewriter ctl cfg c0) (map Write chunks1 ++ [End]) = (r1, res1) -> Forall (fun x => x = ROk) res1 ->
    api_run ctl (new_rewriter ctl cfg c0) (map Write chunks2 ++ [End]) = (r2, res2) -> Forall (fun x => x = ROk) res2 ->
    sink_bytes (rw_sink r1) = sink_bytes (rw_sink r2).
Proof.
  intros C ctl (H1 & H2 & H3) cfg c0 ch1 ch2 r1 res1 r2 res2 Hc.
  exact (observers_agree ctl ctl cfg cfg c0 c0 ch1 ch2 r1 res1 r2 res2 H1 H2 H3 H1 H2 H3 Hc).
Qed.

(* The full statement (kept visible; NOT proved): events and output are chunking invariant for every controller whose
   handlers do not branch on text fragmentation.  It is exercised by the correspondence run on chunking groups and by
   the group oracle (tools/oracles.py: oracle_c02). *)
Definition C02_full_statement : Prop :=
  forall (C : Type) (ctl : controller C) cfg c0 chunks1 chunks2,
    List.concat chunks1 = List.concat chunks2 ->
    sink_bytes (rw_sink (fst (api_run ctl (new_rewriter ctl cfg c0) (map Write chunks1 ++ [End]))))
    = sink_bytes (rw_sink (fst (api_run ctl (new_rewriter ctl cfg c0) (map Write chunks2 ++ [End])))).

Print Assumptions C02_output_is_chunking_invariant_for_observers.
