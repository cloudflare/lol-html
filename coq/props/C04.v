(* C04 -- selector matching agrees with CSS semantics (partial).  Only statements, `exact` proofs and Print Assumptions.
   The reference semantics is spec/CssSem.v (independent of the VM model); the extracted reference is also the oracle
   the implementation's handler invocations are compared with on every run. *)
From LolSpec Require Import CssSem.
From LolModel Require Import Rewriter.
From LolProofs Require Import Css CssPred StackTree Bailout TypedCounters AstSem SelLR VmExec CompileRepr VmRun SelOkDec.
Import ListNotations.

(* Element and selector names: comparing LocalNames (64-bit hash when representable, bytes otherwise) is exactly ASCII
   case-insensitive equality of the names, for ALL byte strings.  (False for the code before the leading-digit fix:
   "1a" and "a" had the same hash; the proof reads the digit arm of LocalNameHash::update from the source.) *)
Theorem C04_local_names_compare_ascii_case_insensitively :
  forall s t : bytes, lname_eqb (lname_of_str s) (lname_of_str t) = name_eq s t.
Proof. exact local_name_eq_is_case_insensitive_name_eq. Qed.

(* Attribute values: the matcher's six operators are the six CSS operators for every value, operand and case flag
   (in particular ^= $= ~= *= with an empty operand match nothing). *)
Theorem C04_attribute_operators_are_css :
  forall op ins actual operand, attr_cmp op ins actual operand = css_attr_cmp op ins actual operand.
Proof. exact attribute_operators_are_css. Qed.

(* :nth-child / :nth-of-type: An+B membership for every step, offset and index (the difference is computed in i64 since
   fix 9d5b935; the translator reads which arithmetic the source uses) *)
Theorem C04_an_plus_b_meaning :
  forall a b i : Z, an_plus_b a b i = true <-> exists n : Z, (0 <= n /\ a * n + b = i)%Z.
Proof. exact an_plus_b_spec. Qed.
Theorem C04_nth_index_is_an_plus_b :
  forall a b i : Z, has_index a b i = an_plus_b a b i.
Proof. exact has_index_exact. Qed.

(* One selector compound against one element: the predicate built by Ast::add_selector (negations flattened into signed
   conjuncts) and evaluated by the VM (tag-name expressions, then attribute expressions) decides exactly the CSS meaning of
   the compound, for EVERY element (name, namespace, attributes incl. duplicates and case variants, sibling positions) and
   every compound whose negations flatten exactly (compound_ok: :not() arguments are single simple selectors under one
   negation, a single compound under a double negation; class names non-empty). *)
Theorem C04_predicate_decides_compound :
  forall (e : elem) (c : compound), compound_ok e c -> vm_predicate e (compound_predicate c) = compound_matches e c.
Proof. exact predicate_decides_compound. Qed.
(* ... and the restriction is necessary: :not(a.x) on <b class="x"> (known finding NotCompoundArg) *)
Example C04_not_with_compound_argument_refuted :
  let e := mkElem (bs "b") Html [(bs "class", bs "x")] 1 1 in
  let c := [SNot [[SType (bs "a"); SClass (bs "x")]]] in
  vm_predicate e (compound_predicate c) = false /\ compound_matches e c = true.
Proof. split; vm_compute; reflexivity. Qed.
Example C04_compound_ok_example :
  compound_ok (mkElem (bs "DIV") Html [(bs "Class", bs "a  b"); (bs "id", bs "k")] 3 2)
              [SType (bs "div"); SClass (bs "b"); SNot [[SId (bs "z")]; [SNthChild 2 0]]; SNot [[SNot [[SAny; SAttrExists (bs "id")]]]]].
Proof. apply compound_okb_ok. reflexivity. Qed.

(* The open-element stack of the matching VM is the tree that explicit tags induce: for EVERY sequence of start tags (with
   their namespace, attributes and self-closing flag) and end tags -- mis-nested, stray, void, foreign self-closing -- run
   through the controller (start-tag hint, attribute request when needed, end-tag hint; every selector program; every
   outcome of selector matching incl. attribute bail-out and recovery), the stack holds exactly the open elements of
   CssSem.on_start / on_end with their child counts, as long as no element gets 2^31-1 children. *)
Theorem C04_vm_stack_is_the_tag_induced_tree :
  forall ops c ext t c',
  r_prog c <> None -> shape (r_stack c) = tshape t -> never_wraps t ops -> vm_run c ext ops = Some c' ->
  shape (r_stack c') = tshape (tree_run t ops).
Proof. exact vm_stack_is_the_tag_induced_tree. Qed.
(* ... and the index that :nth-child is evaluated with is the element's position among its siblings in that tree *)
Theorem C04_nth_child_index_is_the_sibling_position :
  forall s t name n attrs sc, shape s = tshape t -> small (length (siblings t)) ->
  ss_cumulative (build_state (stack_add_child s (lname_of_str name)) (lname_of_str name)) = e_index (fst (on_start t name n attrs sc)).
Proof. exact nth_child_index_is_the_sibling_position. Qed.

(* ... including the per-type counters of :nth-of-type / :first-of-type (TypedChildCounterMap: per element name a stack of
   (count, depth) entries, popped when elements close): for every sequence of tags the stack, the child counters AND the
   typed counters follow the tree (Rfull), and at every start tag the two indices the VM evaluates selectors with are the
   element's position among all siblings and among the siblings of the same name. *)
Theorem C04_vm_stack_and_counters_follow_the_tree :
  forall ops c ext t c',
  r_prog c <> None -> Rfull (r_stack c) t -> never_wraps t ops -> vm_run c ext ops = Some c' -> Rfull (r_stack c') (tree_run t ops).
Proof. exact vm_stack_and_counters_follow_the_tree. Qed.
Theorem C04_sibling_indices_are_the_positions_in_the_tree :
  forall c ext name n attrs sc c' t,
  r_prog c <> None -> Rfull (r_stack c) t -> small (length (siblings t)) -> vm_on_start c ext name n attrs sc = Some c' ->
  Rfull (r_stack c') (after_start t name n sc) /\ r_prog c' <> None /\ indices_ok (r_stack c) t name.
Proof. exact start_tag_keeps_stack_and_counters. Qed.
Example C04_initial_stack_is_the_empty_tree : forall b, Rfull (new_vstack b) (mkTree [] []).
Proof. exact new_vstack_full. Qed.

(* The selector AST (Ast::add_selector: compounds hosted as nodes, shared prefixes merged, child and descendant branches)
   denotes the selector list: read along the chain of open elements (outermost first, the element last), adding a selector
   with handler id [id] to ANY AST adds exactly [id] at exactly the elements CssSem.selector_matches selects (right to left
   over the ancestors), and changes nothing else.  sel_ok = the side conditions of C04_predicate_decides_compound for every
   compound on every element of the chain. *)
Theorem C04_ast_denotes_the_selector_list :
  forall sel id root x anc i, sel_ok sel (rev anc ++ [x]) ->
  (In i (den_any (add_selector root sel id) (rev anc ++ [x])) <->
   In i (den_any root (rev anc ++ [x])) \/ (i = id /\ selector_matches sel x anc = true)).
Proof. exact add_selector_is_css. Qed.
(* the left-to-right reading (what the AST and the VM follow) is the right-to-left CSS matching, for every selector/chain *)
Theorem C04_left_to_right_matching_is_css_matching :
  forall sel x anc, sel_matches_lr sel (rev anc ++ [x]) = selector_matches sel x anc.
Proof. exact selector_lr_is_css. Qed.

(* Compiler::compile_nodes lays every AST out so that each node is represented by its instruction: siblings contiguous,
   jumps = the range of the children, hereditary jumps = the range of the descendant branches (every AST, any depth). *)
Theorem C04_compiled_program_represents_the_ast :
  forall root, rrange (compile root) (pr_entry (compile root)) root.
Proof. exact compile_represents_ast. Qed.

(* END TO END.  For every non-empty list of selectors with their handlers, every sequence of start tags (namespace,
   attributes, self-closing flag) and end tags -- mis-nested, stray, void, foreign self-closing -- run through the
   rewriter's controller from its initial state (AST built by Ast::add_selector, compiled by Compiler::compile_nodes,
   executed by the stack VM with entry points, jumps, hereditary jumps, attribute bail-out and recovery, sibling and typed
   counters), and every further start tag: the ids handed to start_matching (the finish_exec call that produces the
   next state) are exactly the indices of the selectors that CssSem.selector_matches selects for the new element in the tree
   induced by the explicit tags, with its ancestors innermost first.  Hypotheses: no element has 2^31-1 children; sel_ok =
   the side conditions of C04_predicate_decides_compound (excludes :not() with compound arguments: known finding). *)
Theorem C04_selector_vm_is_css_matching :
  forall sels docs bail fa isz mx ext ops c name n avs sc c',
  sels <> [] ->
  never_wraps_a (mkTree [] []) (ops ++ [OpStart name n avs sc]) ->
  vm_run (new_rwc sels docs bail fa isz mx) ext ops = Some c -> vm_on_start c ext name n avs sc = Some c' ->
  let t := tree_run_a (mkTree [] []) ops in
  let el := fst (on_start t name n (pairs avs) sc) in
  let anc := map o_el (t_open t) in
  Forall (fun sel => sel_ok sel (rev anc ++ [el])) (map sh_selector sels) ->
  exists c1 ec' f, finish_exec c1 ext ec' = (c', FOk f) /\ r_locators c1 = r_locators c /\ ec_with_content ec' = stays_open name n sc /\
    forall i, In i (ed_matched (si_data (ec_item ec'))) <->
              exists sh, nth_error sels i = Some sh /\ selector_matches (sh_selector sh) el anc = true.
Proof. exact selector_vm_is_css. Qed.
(* the invariant behind it, for every reachable state: each open element's stack item holds the AST frontier
   (jumps = children of the nodes matched there, hereditary jumps = their descendant branches, matched ids = their ids) *)
Theorem C04_stack_items_hold_the_ast_frontier :
  forall prog root ext ops c t c',
  Inv prog root c t -> never_wraps_a t ops -> vm_run c ext ops = Some c' -> Inv prog root c' (tree_run_a t ops).
Proof. exact run_keeps_inv. Qed.

(* non-vacuity: "div > p.x, [id]" and "section p:not(.y)" on <section><DIV><p class=x id=k>: the hypotheses hold, the run exists *)
Definition ex_s0 : selector := [mkComplex [SType (bs "div")] [(Child, [SType (bs "p"); SClass (bs "x")])]; mkComplex [SAttrExists (bs "id")] []].
Definition ex_s1 : selector := [mkComplex [SType (bs "section")] [(Descendant, [SType (bs "p"); SNot [[SClass (bs "y")]]])]].
Definition ex_sels := [mkSH ex_s0 (Some []) None None; mkSH ex_s1 (Some []) None None].
Definition ex_ops := [OpStart (bs "section") Html [] false; OpStart (bs "DIV") Html [] false].
Definition ex_avs := [mkAV (bs "class") (bs "x") [] None; mkAV (bs "id") (bs "k") [] None].
Definition ex_t := tree_run_a (mkTree [] []) ex_ops.
Definition ex_el := fst (on_start ex_t (bs "p") Html (pairs ex_avs) false).
Definition ex_runs : bool :=
  match vm_run (new_rwc ex_sels [] [] None 96 10000) 0 ex_ops with
  | Some c => match vm_on_start c 0 (bs "p") Html ex_avs false with Some _ => true | None => false end
  | None => false end.
Example C04_end_to_end_example :
  ex_sels <> [] /\ never_wraps_a (mkTree [] []) (ex_ops ++ [OpStart (bs "p") Html ex_avs false]) /\ ex_runs = true /\
  Forall (fun sel => sel_ok sel (rev (map o_el (t_open ex_t)) ++ [ex_el])) (map sh_selector ex_sels) /\
  selector_matches ex_s0 ex_el (map o_el (t_open ex_t)) = true /\ selector_matches ex_s1 ex_el (map o_el (t_open ex_t)) = true.
Proof.
  split; [discriminate|]. split; [vm_compute; repeat split|]. split; [vm_compute; reflexivity|]. split; [|split; vm_compute; reflexivity].
  apply Forall_forall. intros sel [<-|[<-|[]]]; apply sel_okb_ok; reflexivity.
Qed.

(* The side condition is syntactic and decidable: sel_okb (non-empty class names; :not() arguments that flatten exactly) is a
   boolean function of the selector alone and implies sel_ok on every chain -- the end-to-end statement with it: *)
Theorem C04_selector_vm_is_css_matching_for_checked_selectors :
  forall sels docs bail fa isz mx ext ops c name n avs sc c',
  sels <> [] -> forallb (fun sh => sel_okb (sh_selector sh)) sels = true ->
  never_wraps_a (mkTree [] []) (ops ++ [OpStart name n avs sc]) ->
  vm_run (new_rwc sels docs bail fa isz mx) ext ops = Some c -> vm_on_start c ext name n avs sc = Some c' ->
  let t := tree_run_a (mkTree [] []) ops in
  let el := fst (on_start t name n (pairs avs) sc) in
  let anc := map o_el (t_open t) in
  exists c1 ec' f, finish_exec c1 ext ec' = (c', FOk f) /\ r_locators c1 = r_locators c /\ ec_with_content ec' = stays_open name n sc /\
    forall i, In i (ed_matched (si_data (ec_item ec'))) <->
              exists sh, nth_error sels i = Some sh /\ selector_matches (sh_selector sh) el anc = true.
Proof.
  intros sels docs bail fa isz mx ext ops c name n avs sc c' Hne Hb Hw Hrun Hst.
  exact (selector_vm_is_css sels docs bail fa isz mx ext ops c name n avs sc c' Hne Hw Hrun Hst (sels_okb_ok sels _ Hb)).
Qed.
Example C04_checked_selectors_example : forallb (fun sh => sel_okb (sh_selector sh)) ex_sels = true.
Proof. vm_compute. reflexivity. Qed.

(* Attribute bail-out and recovery (entry points, the parent's jumps, hereditary jumps, at any offset): running without
   attributes, bailing out, and resuming with attributes computes exactly what one execution with attributes computes,
   for every program, stack, element and attribute list. *)
Theorem C04_attribute_bailout_and_recovery_equal_one_phase_execution :
  forall prog stk attrs c,
  match exec_without_attrs prog stk c with
  | WoDone c' => exec_all_with_attrs prog stk c attrs = Some c'
  | WoBail c' a r => recover prog stk c' a r attrs = exec_all_with_attrs prog stk c attrs
  | WoPanic => exec_all_with_attrs prog stk c attrs = None
  end.
Proof. exact bailout_and_recovery_equal_one_phase_execution. Qed.

(* non-vacuity / edge *)
Example C04_names_example : lname_eqb (lname_of_str (bs "DIV")) (lname_of_str (bs "div")) = true
                         /\ lname_eqb (lname_of_str (bs "1a")) (lname_of_str (bs "a")) = false
                         /\ lname_eqb (lname_of_str (bs "my-el")) (lname_of_str (bs "MY-EL")) = true.
Proof. exact (conj eq_refl (conj eq_refl eq_refl)). Qed.
Example C04_empty_operand_example : attr_cmp OpPrefix false (bs "abc") [] = false /\ attr_cmp OpIncludes false (bs "a  b") [] = false.
Proof. exact (conj eq_refl eq_refl). Qed.
Example C04_nth_at_the_i32_edge : has_index 1 (-2147483648) 1 = true /\ an_plus_b 1 (-2147483648) 1 = true.
Proof. exact has_index_at_i32_edge. Qed.

Print Assumptions C04_local_names_compare_ascii_case_insensitively.
Print Assumptions C04_attribute_operators_are_css.
Print Assumptions C04_an_plus_b_meaning.
Print Assumptions C04_nth_index_is_an_plus_b.
Print Assumptions C04_predicate_decides_compound.
Print Assumptions C04_vm_stack_is_the_tag_induced_tree.
Print Assumptions C04_attribute_bailout_and_recovery_equal_one_phase_execution.
Print Assumptions C04_vm_stack_and_counters_follow_the_tree.
Print Assumptions C04_sibling_indices_are_the_positions_in_the_tree.
Print Assumptions C04_ast_denotes_the_selector_list.
Print Assumptions C04_left_to_right_matching_is_css_matching.
Print Assumptions C04_compiled_program_represents_the_ast.
Print Assumptions C04_selector_vm_is_css_matching.
Print Assumptions C04_stack_items_hold_the_ast_frontier.
Print Assumptions C04_selector_vm_is_css_matching_for_checked_selectors.
