(* C05 -- scoped dispatch (partial).  Only statements, `exact` proofs and Print Assumptions. *)
From LolModel Require Import Rewriter.
From LolProofs Require Import Memory Scope StackTree TypedCounters AstSem VmRun ScopeCss SelOkDec.
From LolSpec Require Import CssSem.
Open Scope nat_scope.

(* For EVERY selector set, handler scripts (mutating or not), failure injection point, configuration, document and
   chunking: in every state reached through successful writes, the activation count of each comment / text handler is
   its initial count (1 for document-level handlers, 0 for selector-scoped ones) plus the number of (open element,
   matched selector) pairs on the open-element stack whose selector owns the handler. *)
Theorem C05_handler_counts_track_open_matched_elements :
  forall sels docs bail fail isz cfg chunks r res,
  let c0 := new_rwc sels docs bail fail isz (st_max_mem cfg) in
  api_run rc (new_rewriter rc cfg c0) (map Write chunks) = (r, res) -> Forall (fun x => x = ROk) res ->
  let c := d_ctl (c_disp (s_ctx (rw_stream r))) in
  forall i,
    cnt (r_comment c) i = cnt (r_comment c0) i + uses (r_locators c0) lc_cm i (all_ids (vs_items (r_stack c))) /\
    cnt (r_text c) i = cnt (r_text c0) i + uses (r_locators c0) lc_tx i (all_ids (vs_items (r_stack c))).
Proof. exact handler_counts_track_open_matched_elements. Qed.

(* Hence a selector-scoped handler receives tokens (is active) exactly while some element matched by its selector is on
   the open-element stack: never earlier, never after that element has been popped, at any nesting depth. *)
Theorem C05_scoped_handler_active_iff_matched_element_open :
  forall sels docs bail fail isz cfg chunks r res,
  let c0 := new_rwc sels docs bail fail isz (st_max_mem cfg) in
  api_run rc (new_rewriter rc cfg c0) (map Write chunks) = (r, res) -> Forall (fun x => x = ROk) res ->
  let c := d_ctl (c_disp (s_ctx (rw_stream r))) in
  forall k l, nth_error (r_locators c0) k = Some l ->
    (forall i, lc_cm l = Some i ->
       (0 < cnt (r_comment c) i <-> exists it id, In it (vs_items (r_stack c)) /\ In id (ed_matched (si_data it)) /\ owns (r_locators c0) lc_cm i id = true)) /\
    (forall i, lc_tx l = Some i ->
       (0 < cnt (r_text c) i <-> exists it id, In it (vs_items (r_stack c)) /\ In id (ed_matched (si_data it)) /\ owns (r_locators c0) lc_tx i id = true)).
Proof. exact scoped_handler_active_iff_matched_element_open. Qed.

(* End tags: for every stack that follows the tag-induced tree (C04_vm_stack_and_counters_follow_the_tree: every reachable
   one), an end tag deactivates -- scoped handlers off, end-tag handler armed, via stop_matching -- exactly the open
   elements that it closes in the tree: the innermost open element of that name and everything inside it, each once
   (they leave the stack), and an end tag matching no open element deactivates nothing. *)
Theorem C05_end_tag_pops_exactly_the_closed_elements :
  forall s t name s' popped,
  Rfull s t -> stack_pop_up_to s (K name) = (s', popped) ->
  let k := length (t_open (on_end t name)) in
  popped = map si_data (skipn k (vs_items s)) /\ vs_items s' = firstn k (vs_items s) /\ length popped = length (t_open t) - k /\
  (close_to name (t_open t) = None -> popped = nil /\ s' = s).
Proof. intros s t name s' popped [Hsh _]. exact (pop_takes_exactly_the_closed_elements s t name s' popped Hsh). Qed.
Theorem C05_end_tag_stops_exactly_the_closed_elements :
  forall c name t, r_prog c <> None -> Rfull (r_stack c) t ->
  let k := length (t_open (on_end t name)) in
  fst (rw_end_tag c name (hash_of name)) =
  fold_left stop_matching (map si_data (skipn k (vs_items (r_stack c))))
            (rset_vm c (fst (stack_pop_up_to (r_stack c) (K name))) (r_vm_charged c)).
Proof. intros c name t Hp [Hsh _]. exact (rw_end_tag_stops_the_closed_elements c name t Hp Hsh). Qed.

(* C05 + C04 at the controller.  For every non-empty list of selectors with their handlers and EVERY sequence of start tags
   (namespace, attributes, self-closing flag) and end tags run through the rewriter's controller from its initial state: a
   selector-scoped comment / text handler is active (receives tokens) exactly when some OPEN element of the tree induced by
   the tags is matched -- CssSem.selector_matches, with its ancestors -- by a selector that owns the handler: never
   earlier, not after that element is closed, at any depth.  Side conditions as in C04_selector_vm_is_css_matching. *)
Theorem C05_scoped_handlers_follow_css_matching_on_the_tree :
  forall sels docs bail fa isz mx ext ops c,
  sels <> nil ->
  never_wraps_a (mkTree nil nil) ops ->
  vm_run (new_rwc sels docs bail fa isz mx) ext ops = Some c ->
  let c0 := new_rwc sels docs bail fa isz mx in
  let chain := chain_of (tree_run_a (mkTree nil nil) ops) in
  (forall j, j < length chain -> Forall (fun sel => sel_ok sel (firstn (S j) chain)) (map sh_selector sels)) ->
  forall k l, nth_error (r_locators c0) k = Some l ->
  let opened (own : nat -> bool) := exists j e id sh, nth_error chain j = Some e /\ own id = true /\ nth_error sels id = Some sh /\
                                     selector_matches (sh_selector sh) e (rev (firstn j chain)) = true in
  (forall i, lc_cm l = Some i -> (0 < cnt (r_comment c) i <-> opened (owns (r_locators c0) lc_cm i))) /\
  (forall i, lc_tx l = Some i -> (0 < cnt (r_text c) i <-> opened (owns (r_locators c0) lc_tx i))).
Proof. exact scoped_handlers_follow_css. Qed.

(* ... and with the decidable side condition on the selectors (sel_okb, see C04) in place of sel_ok *)
Theorem C05_scoped_handlers_follow_css_matching_for_checked_selectors :
  forall sels docs bail fa isz mx ext ops c,
  sels <> nil -> forallb (fun sh => sel_okb (sh_selector sh)) sels = true ->
  never_wraps_a (mkTree nil nil) ops ->
  vm_run (new_rwc sels docs bail fa isz mx) ext ops = Some c ->
  let c0 := new_rwc sels docs bail fa isz mx in
  let chain := chain_of (tree_run_a (mkTree nil nil) ops) in
  forall k l, nth_error (r_locators c0) k = Some l ->
  let opened (own : nat -> bool) := exists j e id sh, nth_error chain j = Some e /\ own id = true /\ nth_error sels id = Some sh /\
                                     selector_matches (sh_selector sh) e (rev (firstn j chain)) = true in
  (forall i, lc_cm l = Some i -> (0 < cnt (r_comment c) i <-> opened (owns (r_locators c0) lc_cm i))) /\
  (forall i, lc_tx l = Some i -> (0 < cnt (r_text c) i <-> opened (owns (r_locators c0) lc_tx i))).
Proof.
  intros sels docs bail fa isz mx ext ops c Hne Hb Hw Hrun.
  exact (scoped_handlers_follow_css sels docs bail fa isz mx ext ops c Hne Hw Hrun (fun j _ => sels_okb_ok sels _ Hb)).
Qed.

(* non-vacuity: `div` with a comment handler, after writing "<div><p><!--" the handler is active and exactly one
   (element, selector) pair owns it; after "</div>" it is inactive again *)
Definition ex_sels := [mkSH [mkComplex [SType (bs "div")] []] None (Some []) None].
Definition ex_cfg := mkSettings false 1000000%N 0 false false 0.
Definition ex_run (doc : bytes) :=
  let c0 := new_rwc ex_sels [] [] None 104%N 1000000%N in
  let (r, res) := api_run rc (new_rewriter rc ex_cfg c0) [Write doc] in
  let c := d_ctl (c_disp (s_ctx (rw_stream r))) in
  (res, cnt (r_comment c) 0, length (vs_items (r_stack c))).
Example C05_example_open : ex_run (bs "<div><p><!--c-->x") = ([ROk], 1, 2).
Proof. vm_compute. reflexivity. Qed.
Example C05_example_closed : ex_run (bs "<div><p><!--c-->x</div>y") = ([ROk], 0, 0).
Proof. vm_compute. reflexivity. Qed.

Print Assumptions C05_handler_counts_track_open_matched_elements.
Print Assumptions C05_scoped_handler_active_iff_matched_element_open.
Print Assumptions C05_end_tag_pops_exactly_the_closed_elements.
Print Assumptions C05_end_tag_stops_exactly_the_closed_elements.
Print Assumptions C05_scoped_handlers_follow_css_matching_on_the_tree.
Print Assumptions C05_scoped_handlers_follow_css_matching_for_checked_selectors.
