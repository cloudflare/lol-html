(* C15 -- robustness (partial): the arithmetic of the tokenizer / dispatcher / stream never goes wrong. *)
From LolModel Require Import Machine Selectors.
From LolProofs Require Import InlineAcyclic.
From LolProofs Require SimInv.
From LolProofs Require Import Tiling TableFacts.
From LolProps Require Import C01.
From Coq Require Import Lia.

(* In the model every Rust operation that can panic on bad offsets is a checked operation: slicing the chunk
   between remaining_content_start and a lexeme (code 10, debug_assert! in Bytes::slice) and the cursor rewind
   `pos - consumed_byte_count` at the end of a chunk (code 5, usize underflow).  For every observer controller,
   configuration, input and chunking neither can happen. *)
Theorem C15_no_offset_panic :
  forall (C : Type) (ctl : controller C), observer ctl ->
  forall cfg c0 chunks r res k,
    api_run ctl (new_rewriter ctl cfg c0) (map Write chunks) = (r, res) ->
    In (RPanic k) res -> k <> 10 /\ k <> 5.
Proof.
  intros C ctl (H1 & H2 & _). exact (no_slice_panic ctl H1 H2 table_ok_current).
Qed.

(* the wrapping i32 arithmetic of NthChild::has_index stays in range for every operand *)
Theorem C15_wrap32_in_range : forall z, (-2147483648 <= wrap32 z < 2147483648)%Z.
Proof. intro z. unfold wrap32. pose proof (Z.mod_pos_bound (z + 2147483648) 4294967296 ltac:(lia)). lia. Qed.

(* No stack exhaustion from the tokenizer: `--> #[inline] state` is a direct call of the state function, every other transition
   returns to the parsing loop first; on the regenerated table the inline transitions form no cycle, so the depth of nested
   state-function calls is bounded by the number of states for every input. *)
Theorem C15_inline_transitions_form_no_cycle : forallb (fun st => negb (on_inline_cycle st)) all_states = true.
Proof. exact inline_transitions_form_no_cycle. Qed.

(* The tree builder simulator's namespace stack is never empty: for every sequence of simulator calls that follows the request
   protocol (start / end tag feedback, RequestLexeme answered by the lexeme callback) its top is current_ns and its bottom is Html,
   so the debug_assert!(false, "Namespace stack should always have at least one item") of leave_ns is unreachable -- also through
   the breakout path that leaves all directly nested foreign roots at once. *)
Theorem C15_namespace_stack_never_empty : forall part strict evs s p,
  SimInv.sim_run part (init_sim strict, None) evs = Some (s, p) ->
  exists r, ns_stack s = cur_ns s :: r /\ last (ns_stack s) Html = Html.
Proof. exact SimInv.namespace_stack_never_empty. Qed.

Print Assumptions C15_no_offset_panic.
Print Assumptions C15_wrap32_in_range.
Print Assumptions C15_inline_transitions_form_no_cycle.
Print Assumptions C15_namespace_stack_never_empty.
