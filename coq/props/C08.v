(* C08 -- inserted text cannot change markup structure (partial).  Only statements, `exact` proofs, Print Assumptions. *)
From LolModel Require Import Rewriter.
From LolProofs Require Import TokenLaws Validators.

(* Text content: for every byte string the escaped form contains no '<' and no '>', and decoding the three character
   references gives the original string back (so exactly the inserted text node re-parses). *)
Theorem C08_escaped_text_has_no_markup : forall s, forallb (fun c => negb (is_lt_gt c)) (escape_body_text s) = true.
Proof. exact escape_body_text_no_markup. Qed.
Theorem C08_escaped_text_roundtrips : forall s fuel, length s <= fuel -> unescape fuel (escape_body_text s) = s.
Proof. exact unescape_escape_body_text. Qed.
(* Attribute values: the serialised value contains no double quote, so it cannot end the quoted value early. *)
Theorem C08_escaped_attribute_value_has_no_quote : forall s, forallb (fun c => negb (c =? 34)%N) (escape_double_quotes s) = true.
Proof. exact escape_double_quotes_no_quote. Qed.
(* Comment text accepted by set_text contains none of the comment-closing shapes. *)
Theorem C08_accepted_comment_text : forall t, comment_text_bad t = false ->
  has_infix t (bs "-->") = false /\ has_infix t (bs "--!>") = false /\ starts_with t (bs ">") = false /\ starts_with t (bs "->") = false.
Proof. exact accepted_comment_text. Qed.
(* The validators as they are written in the source today (byte sets and shapes regenerated by the translator on every
   run): names are refused exactly when they contain a byte that would end or split the name in a serialised tag --
   whitespace, '/', '>' (and '=' for attribute names) -- and comment text exactly for the four closing shapes. *)
Theorem C08_attribute_name_validator_is_the_delimiter_set :
  forall c, existsb (N.eqb c) ATTR_NAME_FORBIDDEN = spec_attr_name_delimiter c.
Proof. exact attr_name_validator_is_the_delimiter_set. Qed.
Theorem C08_tag_name_validator_is_the_delimiter_set :
  forall c, existsb (N.eqb c) TAG_NAME_FORBIDDEN = spec_tag_name_delimiter c.
Proof. exact tag_name_validator_is_the_delimiter_set. Qed.
Theorem C08_comment_validator_shapes : COMMENT_BAD_INFIX = spec_comment_bad_infix /\ COMMENT_BAD_PREFIX = spec_comment_bad_prefix.
Proof. exact comment_validator_shapes. Qed.
Theorem C08_accepted_names_contain_no_delimiter :
  (forall n, attr_name_check n = None -> n <> nil /\ forallb (fun c => negb (spec_attr_name_delimiter c)) n = true) /\
  (forall n, tag_name_check n = None -> (exists c r, n = c :: r /\ is_alpha c = true) /\ forallb (fun c => negb (spec_tag_name_delimiter c)) n = true).
Proof. exact (conj accepted_attr_name_has_no_delimiter accepted_tag_name_has_no_delimiter). Qed.
(* Rejected setters leave the token unchanged. *)
Theorem C08_rejected_setters_change_nothing :
  (forall t x, comment_text_bad x = true -> apply_tok_op true t (TkSetText x) = (t, OpErr))
  /\ (forall e n, tag_name_check n <> None -> apply_el_op e (ElSetTagName n) = (e, OpErr))
  /\ (forall e n v, attr_name_check (lower_bytes n) <> None -> apply_el_op e (ElSetAttr n v) = (e, OpErr)).
Proof.
  split; [|split].
  - intros t x H. cbn. rewrite H. reflexivity.
  - intros e n H. cbn. destruct (tag_name_check n); [reflexivity | contradiction].
  - intros e n v H. cbn. unfold stt_set_attr. destruct (attr_name_check (lower_bytes n)); [reflexivity | contradiction].
Qed.
(* NOT proved here: re-tokenisation of the serialised output by the (regenerated) tokenizer table; the cross-encoding
   clause (encoding_rs is external).  Exercised by correspondence with biased strings in operation scripts. *)
Print Assumptions C08_escaped_text_has_no_markup.
Print Assumptions C08_escaped_text_roundtrips.
Print Assumptions C08_escaped_attribute_value_has_no_quote.
Print Assumptions C08_accepted_comment_text.
Print Assumptions C08_rejected_setters_change_nothing.
Print Assumptions C08_attribute_name_validator_is_the_delimiter_set.
Print Assumptions C08_tag_name_validator_is_the_delimiter_set.
Print Assumptions C08_comment_validator_shapes.
Print Assumptions C08_accepted_names_contain_no_delimiter.
