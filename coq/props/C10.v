(* C10 -- memory limit.  Only statements, `exact` proofs and Print Assumptions. *)
From LolModel Require Import Rewriter.
From LolProofs Require Import LimitMono Memory.

(* For every configuration (selectors, handlers of any kind, failure injection), every limit M that admits
   the preallocation, and every sequence of writes that all succeed: the memory the rewriter accounts for
   (parsing buffer + open-element stack) and the number of not-yet-emitted input bytes it retains are <= M. *)
Theorem C10_limit_after_successful_writes :
  forall (cfg : settings) (c0 : rwc) (chunks : list bytes),
    prealloc_fits rewrite_controller cfg c0 = true -> r_max c0 = st_max_mem cfg ->
    forall r res,
      api_run rewrite_controller (new_rewriter rewrite_controller cfg c0) (map Write chunks) = (r, res) ->
      Forall (fun x => x = ROk) res ->
      (accounted (rw_stream r) <= st_max_mem cfg)%N /\ (N.of_nat (retained (rw_stream r)) <= st_max_mem cfg)%N.
Proof. exact limit_holds_after_successful_writes. Qed.

(* one-step form: the invariant (buffer within capacity, capacity accounted, usage <= M) survives any successful write *)
Theorem C10_write_keeps_limit :
  forall s data s', Minv s -> write rewrite_controller s data = (s', COk) -> Minv s'.
Proof. exact write_keeps_limit. Qed.

(* the open-element stack is charged before it grows: a successful VM step never leaves usage above the limit *)
Theorem C10_stack_growth_is_charged :
  forall c ext ec M c' f, within ext c M -> finish_exec c ext ec = (c', FOk f) -> within ext c' M.
Proof. exact finish_exec_within. Qed.

(* non-vacuity: a run that stays within the limit and one that fails with MemoryLimitExceeded (not a panic) *)
Definition ex_sel : sel_handlers := mkSH [mkComplex [SAny] []] (Some []) None None.
Definition ex_cfg (m : N) : settings := mkSettings false m 0 false false 0.
Example C10_nonvacuous_ok :
  let c0 := new_rwc [ex_sel] [] [] None 104 2000 in
  let '(r, res) := api_run rewrite_controller (new_rewriter rewrite_controller (ex_cfg 2000) c0) [Write (bs "<a><b href='x"); Write (bs "y'>")] in
  res = [ROk; ROk] /\ accounted (rw_stream r) = 845%N /\ prealloc_fits rewrite_controller (ex_cfg 2000) c0 = true.
Proof. vm_compute. repeat split. Qed.
Example C10_nonvacuous_fail :
  let c0 := new_rwc [ex_sel] [] [] None 104 840 in
  snd (api_run rewrite_controller (new_rewriter rewrite_controller (ex_cfg 840) c0) [Write (bs "<a><b href='x"); Write (bs "y'>")])
  = [RErr MemoryLimitExceeded; RPanicPoisoned].
Proof. vm_compute. reflexivity. Qed.

(* Known finding (PreallocAboveLimit): when the preallocated parsing buffer does not fit the limit, construction
   succeeds in release builds with the accounted usage above the limit (debug builds trip a debug_assert!). *)
Example C10_prealloc_above_limit_refuted :
  let cfg := mkSettings false 10 1024 false false 0 in
  let c0 := new_rwc [] [] [] None 104 10 in
  prealloc_fits rewrite_controller cfg c0 = false /\ (accounted (new_stream rewrite_controller cfg c0) > st_max_mem cfg)%N.
Proof. vm_compute. split; reflexivity. Qed.

(* Monotonicity in the limit, at the two places where the limit is consulted (the parsing buffer and the open-element stack):
   what is granted under M is granted, with the same resulting state and the same accounting, under every M' >= M.
   (The lifting to whole runs -- "a run that succeeds under M succeeds identically under M'" -- is decided by the limit-sweep
   groups of the `mem` family, not proved.) *)
Theorem C10_buffer_growth_is_monotone_in_the_limit :
  forall a other M M' slice a', (M <= M')%N -> arena_append a other M slice = (a', true) -> arena_append a other M' slice = (a', true).
Proof. exact arena_append_mono. Qed.
Theorem C10_stack_growth_is_monotone_in_the_limit :
  forall s it isz mi other M M' s' ch, (M <= M')%N -> stack_push s it isz mi other M = (s', ch, true) -> stack_push s it isz mi other M' = (s', ch, true).
Proof. exact stack_push_mono. Qed.

Print Assumptions C10_limit_after_successful_writes.
Print Assumptions C10_write_keeps_limit.
Print Assumptions C10_stack_growth_is_charged.
Print Assumptions C10_buffer_growth_is_monotone_in_the_limit.
Print Assumptions C10_stack_growth_is_monotone_in_the_limit.
