(* C12 -- fail-stop and sink protocol.  Only statements, `exact` proofs and Print Assumptions. *)
From LolModel Require Import Machine.
From LolProofs Require Import SinkProtocol.

(* For EVERY controller (= every set of handlers, observing or mutating, failing at any point),
   every configuration, and every history of write/end calls: the sink sees set_encoding first,
   then only non-empty data chunks, and a zero-length chunk exactly as the very last call, iff
   some end() returned Ok. *)
Theorem C12_sink_protocol :
  forall (C : Type) (ctl : controller C) (cfg : settings) (c0 : C) (ops : list api_call),
    let '(r, res) := api_run ctl (new_rewriter ctl cfg c0) ops in
    exists body,
      rw_sink r = SkEncoding (st_encoding cfg) :: body ++ (if fin_of false ops res then [SkChunk []] else [])
      /\ Forall data_chunk body.
Proof. exact @sink_protocol. Qed.

Theorem C12_finalizing_chunk_iff_successful_end :
  forall (ops : list api_call) (fin : bool) (res : list api_res), length res = length ops ->
    fin_of fin ops res = true <->
    fin = true \/ exists i, nth_error ops i = Some End /\ nth_error res i = Some ROk.
Proof. exact fin_of_true_iff. Qed.

(* After an error the rewriter is poisoned; a poisoned rewriter panics and changes nothing (no output). *)
Theorem C12_error_poisons :
  forall (C : Type) (ctl : controller C) r op r' e,
    rw_ended r = false -> rw_poisoned r = false -> api_step ctl r op = (r', RErr e) -> rw_poisoned r' = true.
Proof. exact @error_poisons. Qed.
Theorem C12_poisoned_is_inert :
  forall (C : Type) (ctl : controller C) r op,
    rw_poisoned r = true -> rw_ended r = false ->
    exists ended, api_step ctl r op = (mkRw (rw_stream r) true ended, RPanicPoisoned).
Proof. exact @poisoned_is_inert. Qed.

(* without graceful bail-out, what was emitted before a failure is a prefix of the bytes written (hence of what the
   complete run emits, by C01) -- for observer controllers *)
From LolProps Require Import C01.
Theorem C12_prefix_before_failure :
  forall (C : Type) (ctl : controller C), observer ctl ->
  forall cfg c0 chunks data r res r' e,
    api_run ctl (new_rewriter ctl cfg c0) (map Write chunks) = (r, res) -> Forall (fun x => x = ROk) res ->
    api_step ctl r (Write data) = (r', RErr e) -> should_bail_out_for (rw_stream r) e = false ->
    exists post, sink_bytes (rw_sink r') ++ post = List.concat chunks ++ data.
Proof. exact C01_prefix_on_failure. Qed.

(* non-vacuity: a concrete run that ends successfully *)
From LolModel Require Import Policy.
Example C12_nonvacuous :
  let cfg := mkSettings false 1000%N 0 false false 0 in
  let p0 := mkPol 0 1 None false [] [] 0 [] in
  let '(r, res) := api_run policy_controller (new_rewriter policy_controller cfg p0) [Write (bs "<a>x</a>"); End] in
  res = [ROk; ROk] /\ fin_of false [Write (bs "<a>x</a>"); End] res = true /\ length (rw_sink r) = 4.
Proof. vm_compute. repeat split. Qed.

Print Assumptions C12_sink_protocol.
Print Assumptions C12_finalizing_chunk_iff_successful_end.
Print Assumptions C12_error_poisons.
Print Assumptions C12_poisoned_is_inert.
Print Assumptions C12_prefix_before_failure.
